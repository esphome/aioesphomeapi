(* C18 - reconnect manager: one attempt at a time, specified back-off, clean stop.
   Model/Reconnect.v: labelled transition system of reconnect_logic.py over a client whose attempt outcomes are adversarial
   (ok / auth error / other error, returning at any later time); user callbacks return at once; start() is issued while the
   connect task does not hold the lock.  Constants and the back-off expression are read from the source (GenConstants). *)
From Coq Require Import NArith ZArith List Bool Lia.
From Verif Require Import Generated.GenConstants Model.FloatFix Model.Reconnect Proofs.ReconnectProofs.
Import ListNotations.
Open Scope Z_scope.

(* (1) for every history: at most one client connect call in flight - exactly while CONNECTING / HANDSHAKING *)
Theorem C18_one_attempt_at_a_time : forall s, rreachable s ->
  0 <= g_in_flight s <= 1 /\ (g_in_flight s = 1 <-> (r_state s = RConnecting \/ r_state s = RHandshaking)).
Proof.
  intros s H. pose proof (proj1 (rreachable_RI s H)) as Hi. rewrite (inv_flight s Hi), (inv_task s Hi).
  destruct (r_state s); cbn; intuition (lia || discriminate).
Qed.

(* (2) the wait after the n-th consecutive failure, for EVERY n >= 1: min(round(1.8^n), 60) s; 60 s from n = 7 on, hence also after
   authentication / encryption errors (tries := 100) *)
Theorem C18_backoff_spec : forall n, 1 <= n ->
  backoff_seconds n = (if 60 * 5 ^ n <=? 9 ^ n then 60 else rhe (9 ^ n) (5 ^ n)).
Proof. intros n _. apply backoff_seconds_eq. Qed.
Theorem C18_backoff_capped : forall n, 7 <= n -> backoff_seconds n = 60.
Proof. exact backoff_capped. Qed.
Example C18_backoff_table : map backoff_seconds [1; 2; 3; 4; 5; 6; 7; 8; 100] = [2; 3; 6; 10; 19; 34; 60; 60; 60] /\ MAXIMUM_BACKOFF_TRIES = 100.
Proof. vm_compute. split; reflexivity. Qed.
Theorem C18_failure_schedules_backoff : forall s auth,
  let '(s', o) := failure s auth in
  r_timer s' = Some (r_now s + backoff_seconds (if auth then MAXIMUM_BACKOFF_TRIES else r_tries s + 1) * UNITS_PER_SECOND) /\
  r_tries s' = (if auth then MAXIMUM_BACKOFF_TRIES else r_tries s + 1) /\ r_state s' = RDisc /\ r_listening s' = true /\ In OConnectError o.
Proof. intros s auth. unfold failure. rewrite start_listen_eq. cbn. repeat split. left. reflexivity. Qed.
Theorem C18_unexpected_end_retries_at_once : forall s s' o,
  r_stopped s = false -> rstep s (LSessionEnd false) = Some (s', o) -> existsb is_attempt o = true.
Proof.
  intros s s' o Sp E. cbn [rstep] in E. destruct (r_alive s); [|discriminate]. destruct (r_task s); try discriminate.
  rewrite Sp, call_connect_once_idle, connect_once_idle in E by reflexivity. injection E as _ <-. reflexivity.
Qed.
Theorem C18_expected_end_cools_down : forall s s' o,
  r_stopped s = false -> rstep s (LSessionEnd true) = Some (s', o) ->
  r_timer s' = Some (r_now s + EXPECTED_DISCONNECT_COOLDOWN) /\ existsb is_attempt o = false /\ r_state s' = RDisc.
Proof.
  intros s s' o Sp E. cbn [rstep] in E. destruct (r_alive s); [|discriminate]. destruct (r_task s); try discriminate.
  rewrite Sp in E. injection E as <- <-. cbn. auto.
Qed.
Example C18_cooldown : EXPECTED_DISCONNECT_COOLDOWN = 5 * UNITS_PER_SECOND. Proof. reflexivity. Qed.
Theorem C18_timer_exact : forall s s' o, rstep s LTimer = Some (s', o) -> r_timer s = Some (r_now s).
Proof.
  intros s s' o. cbn. destruct (r_timer s) as [d|]; [|discriminate]. destruct (Z.eqb_spec d (r_now s)); [|discriminate]. intros _. congruence.
Qed.
Theorem C18_time_respects_timer : forall s t s' o d, rstep s (LAdv t) = Some (s', o) -> r_timer s = Some d -> t <= d.
Proof.
  intros s t s' o d. cbn. intros E Hd. rewrite Hd in E. destruct (r_now s <=? t); cbn in E; [|discriminate].
  destruct (Z.leb_spec t d); [assumption|discriminate].
Qed.

(* (3) mDNS records *)
Theorem C18_record_ignored_when_connected : forall s s' o,
  rreachable s -> (r_state s = RHandshaking \/ r_state s = RReady) -> rstep s LRecord = Some (s', o) -> s' = s /\ o = [].
Proof.
  intros s s' o H St E. pose proof (inv_accept s (proj1 (rreachable_RI s H))) as C.
  cbn [rstep] in E. destruct (r_listening s); [|discriminate].
  destruct (r_accept s); [destruct St as [St|St]; rewrite St in C; discriminate (C eq_refl)|].
  injection E as <- <-. auto.
Qed.
Theorem C18_record_triggers_attempt_when_waiting : forall s s' o,
  r_state s = RDisc -> r_task s = TNone -> r_accept s = true -> r_stopped s = false -> r_listening s = true -> r_alive s = false ->
  rstep s LRecord = Some (s', o) -> existsb is_attempt o = true /\ r_state s' = RConnecting.
Proof.
  intros s s' o H1 H2 H3 H4 H5 H6 E. cbn [rstep] in E. rewrite stop_listen_eq, H2, H3, H4, H5, H6 in E. cbn [negb orb] in E.
  rewrite call_connect_once_idle, connect_once_idle in E by (reflexivity || exact H1). injection E as <- <-. split; reflexivity.
Qed.

(* (4) on_connect / on_disconnect strictly alternate, starting with on_connect, one pair per session *)
Theorem C18_callbacks_alternate : forall s, rreachable s -> alt (g_log s) (r_alive s).
Proof. intros s H. exact (inv_alt s (proj1 (rreachable_RI s H))). Qed.
Theorem C18_alternation_shape : forall l b, alt l b ->
  (forall i, nth_error l i = Some true -> Nat.even i = true) /\ (forall i, nth_error l i = Some false -> Nat.even i = false) /\
  Nat.even (length l) = negb b.
Proof.
  intros l b H. destruct (alt_parity l b H) as [A D]. repeat split; [intros i Q; symmetry; exact (A i _ Q)..|exact D].
Qed.

(* (5) once stop() has returned: no attempt, no listener, no timer, whatever happens - until start() is called again *)
Theorem C18_stopped_stays_quiet : forall s l s' o,
  rreachable s -> r_stopped s = true -> r_stopping s = false -> l <> LStart -> rstep s l = Some (s', o) ->
  existsb is_attempt o = false /\ r_stopped s' = true /\ r_listening s' = false /\ r_timer s' = None /\ r_task s' = TNone.
Proof. intros s l s' o H. exact (stopped_quiet s l s' o (rreachable_RI s H)). Qed.

(* non-vacuity: two failures, a record-triggered attempt that succeeds, an expected end, the cool-down retry, stop *)
Example C18_demo :
  option_map (fun r => (r_state (fst r), r_stopped (fst r), g_log (fst r), concat (snd r)))
    (rrun rl_init [LStart; LStartDone OErrOther; LAdv 2048; LTimer; LStartDone OErrOther; LRecord; LStartDone OOk; LFinishDone OOk;
                   LSessionEnd true; LAdv 7168; LTimer; LStop])
  = Some (RDisc, true, [true; false],
          [OAttempt; OConnectError; OListen true; OTimerSet 2048; OAttempt; OConnectError; OTimerSet 5120; OListen false; OAttempt; OConnect;
           ODisconnect true; OTimerSet 7168; OAttempt; OAttemptCancelled; OStopped]).
Proof. vm_compute. reflexivity. Qed.
