(* C19 - the client never wedges and refuses work unless a session is alive.
   Model/Client.v: APIClient's bookkeeping over a sequence of Model/Conn.v connections.
   Proved here: the acceptance rule, the refusal of commands and requests without a live session (nothing written, state
   untouched), that every way a connection ends or a connect phase fails clears the client's reference in the very callback
   in which it happens, and - for every sequence of client calls and connection events - that whenever the connection is
   closed and neither connect phase is in flight the client holds no connection, so that the next start_connection is
   accepted (C19_never_wedged; the invariant behind it, preserved by every label of the connection machine, is in
   Proofs/ConnWedge.v and Proofs/ClientProofs.v). *)
From Coq Require Import NArith ZArith List Bool.
From Verif Require Import Model.Conn Model.Client Proofs.ConnWedge Proofs.ClientProofs Proofs.Product.
Import ListNotations.

Theorem C19_start_accepted_iff_free : forall k k' o,
  cstep k CStart = Some (k', o) -> (In CRaiseAlready o <-> cl_has k = true).
Proof.
  intros k k' o. cbn [cstep]. destruct (cl_has k) eqn:E.
  - intro H. injection H as _ <-. split; auto. intros _. left. reflexivity.
  - destruct (step _ LStart) as [[c1 o1]|]; [|discriminate]. intro H. injection H as _ <-.
    split; [|discriminate]. intro Hin. apply in_map_iff in Hin. destruct Hin as (x & Hx & _). discriminate.
Qed.
(* a refused start changes nothing; an accepted one works on a brand-new connection object *)
Theorem C19_refused_start_is_noop : forall k k' o, cstep k CStart = Some (k', o) -> cl_has k = true -> k' = k /\ o = [CRaiseAlready].
Proof. intros k k' o. cbn [cstep]. intros E H. rewrite H in E. injection E as <- <-. auto. Qed.
Theorem C19_accepted_start_is_fresh : forall k k' o,
  cstep k CStart = Some (k', o) -> cl_has k = false -> cl_sessions k' = S (cl_sessions k) /\ cs (cl_conn k') = Init /\ cl_has k' = true.
Proof.
  intros k k' o. cbn [cstep]. intros E H. rewrite H in E.
  unfold new_conn in E. destruct (cl_cfg k) as [[[nz ex] ka] scr]. cbn [step] in E. cbn in E.
  injection E as <- _. cbn. auto.
Qed.

(* commands and requests without a live, authenticated session: a connection error, nothing written, nothing changed *)
Theorem C19_command_refused : forall k tys k' o,
  cstep k (CCommand tys) = Some (k', o) -> (cl_has k = false \/ is_connected (cl_conn k) = false) ->
  k' = k /\ (o = [CRaiseNotConnected] \/ o = [CRaiseNotReady]).
Proof.
  intros k tys k' o. cbn [cstep]. destruct (cl_has k); [|intros E _; injection E as <- <-; auto].
  destruct (is_connected (cl_conn k)); [intros _ [H|H]; discriminate|]. intros E _. injection E as <- <-. auto.
Qed.
Theorem C19_request_refused : forall k k' o,
  cstep k CRequest = Some (k', o) -> (cl_has k = false \/ is_connected (cl_conn k) = false) ->
  k' = k /\ (o = [CRaiseNotConnected] \/ o = [CRaiseNotReady]).
Proof.
  intros k k' o. cbn [cstep]. destruct (cl_has k); [|intros E _; injection E as <- <-; auto].
  destruct (is_connected (cl_conn k)); [intros _ [H|H]; discriminate|]. intros E _. injection E as <- <-. auto.
Qed.

(* every ending clears the reference at once: the stop hook, a failed connect phase, a returned disconnect() *)
Theorem C19_endings_clear : forall k l k' o,
  cstep k (CConn l) = Some (k', o) ->
  (exists b, In (CO (OStop b)) o) \/ (exists e, In (CO (OTaskDone TStart (TRaise e))) o) \/
  (exists e, In (CO (OTaskDone TFinish (TRaise e))) o) \/ In (CO (OTaskDone TDisc TOk)) o ->
  cl_has k' = false.
Proof.
  intros k l k' o. cbn [cstep]. destruct (allowed_conn_label l); [|discriminate].
  destruct (step (cl_conn k) l) as [[c1 o1]|]; [|discriminate]. unfold after. intro E. injection E as <- <-. cbn.
  intro H. assert (Hc : clears o1 = true).
  { unfold clears. apply existsb_exists.
    destruct H as [[b H]|[[e H]|[[e H]|H]]]; apply in_map_iff in H; destruct H as (x & Hx & Hin); injection Hx as ->; eexists; (split; [exact Hin|reflexivity]). }
  rewrite Hc. reflexivity.
Qed.
Theorem C19_forced_disconnect_clears : forall k k' o, cstep k (CDisconnect true) = Some (k', o) -> cl_has k' = false.
Proof.
  intros k k' o. cbn [cstep]. destruct (cl_has k) eqn:E; [|intro H; injection H as <- _; exact E].
  destruct (step (cl_conn k) LForce) as [[c1 o1]|]; [|discriminate]. intro H. injection H as <- _. reflexivity.
Qed.

(* for EVERY run of the client from a fresh object: a closed connection with no connect phase in flight is not referred to any more,
   and the next start_connection is accepted *)
Theorem C19_never_wedged : forall nz ex ka scr ls k os,
  crun (client_init nz ex ka scr) ls = Some (k, os) ->
  cs (cl_conn k) = Closed -> SF (cl_conn k) = false -> cl_has k = false.
Proof. exact never_wedged. Qed.
Theorem C19_then_start_is_accepted : forall nz ex ka scr ls k os k' o,
  crun (client_init nz ex ka scr) ls = Some (k, os) ->
  cs (cl_conn k) = Closed -> SF (cl_conn k) = false -> cstep k CStart = Some (k', o) -> ~ In CRaiseAlready o.
Proof.
  intros nz ex ka scr ls k os k' o E Hc Hs Es Hin.
  apply (C19_start_accepted_iff_free k k' o Es) in Hin. rewrite (never_wedged nz ex ka scr ls k os E Hc Hs) in Hin. discriminate.
Qed.
(* the invariant holds in every reachable client state: the connection object is well formed and, while referred to, open or in progress *)
Theorem C19_invariant_all_runs : forall nz ex ka scr ls k os, crun (client_init nz ex ka scr) ls = Some (k, os) -> CI k.
Proof. intros. eapply crun_CI; [apply CI_init|eassumption]. Qed.

(* non-vacuity: connect, peer closes, connect again; a command in between is refused *)
Definition hello : msg := mkMsg T_HELLO_RESP true 0 1 NameEmpty false.
Definition discreq : msg := mkMsg T_DISC_REQ true 0 0 NameEmpty false.
Definition session : list clabel :=
  [CStart; CConn (LResolveDone None 1); CConn (LWake TStart); CConn (LTcpDone None); CConn (LWake TStart); CConn (LIntr true);
   CFinish false; CConn LMade; CConn LMadeWaiter; CConn (LWake TFinish); CConn (LData [DFrame hello]); CConn (LWake TFinish); CConn (LIntr false)].
Example C19_two_sessions :
  option_map (fun r => (cl_has (fst r), cl_sessions (fst r), cs (cl_conn (fst r)), last (snd r) []))
    (crun (client_init false false 20480 []) (session ++ [CStart; CConn (LData [DFrame discreq]); CCommand [33%N]; CStart]))
  = Some (true, 2%nat, Init, []).
Proof. vm_compute. reflexivity. Qed.

(* the hypotheses of C19_never_wedged are met after a session the device ended, and after a failed attempt *)
Example C19_never_wedged_applies :
  option_map (fun r => (cs (cl_conn (fst r)), SF (cl_conn (fst r)), cl_has (fst r)))
    (crun (client_init false false 20480 []) (session ++ [CConn (LData [DFrame discreq])]))
  = Some (Closed, false, false) /\
  option_map (fun r => (cs (cl_conn (fst r)), SF (cl_conn (fst r)), cl_has (fst r)))
    (crun (client_init false false 20480 []) [CStart; CConn (LResolveDone (Some (Lib LResolve)) 1); CConn (LWake TStart)])
  = Some (Closed, false, false).
Proof. split; vm_compute; reflexivity. Qed.

(* Two APIClient objects of one process are the interleaving product of two client machines (Proofs/Product.v: the model has no
   state outside the client). Each of them runs its own calls and events only, so it never wedges whatever the other one goes
   through - failed attempts, write failures, sessions that die of any cause. (That the code has no state outside the client
   and its connection is what the two-client probes of the checks test.) *)
Definition client_pair_run := prun client client clabel clabel (list cobs) (list cobs) cstep cstep.

Lemma crun_is_runA : forall ls k, crun k ls = runA client clabel (list cobs) cstep k ls.
Proof.
  induction ls as [|l r IH]; intro k; cbn; [reflexivity|].
  destruct (cstep k l) as [[k1 o]|]; [|reflexivity]. rewrite IH. reflexivity.
Qed.

Theorem C19_two_clients_independent : forall ls a b a' b' os,
  client_pair_run (a, b) ls = Some ((a', b'), os) ->
  crun a (labelsA clabel clabel ls) = Some (a', obsA (list cobs) (list cobs) os).
Proof.
  intros ls a b a' b' os H. rewrite crun_is_runA.
  exact (proj1 (product_projects _ _ _ _ _ _ cstep cstep ls a b a' b' os H)).
Qed.

Theorem C19_never_wedged_beside_another_client : forall nz ex ka scr b ls k b' os,
  client_pair_run (client_init nz ex ka scr, b) ls = Some ((k, b'), os) ->
  cs (cl_conn k) = Closed -> SF (cl_conn k) = false -> cl_has k = false.
Proof.
  intros nz ex ka scr b ls k b' os H. apply C19_two_clients_independent in H.
  exact (C19_never_wedged nz ex ka scr _ k _ H).
Qed.
