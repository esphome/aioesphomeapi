(* C12 - dispatch exactly once, in order; unknown types ignored; bad payload closes; peer requests answered. *)
From Coq Require Import NArith ZArith List Bool.
From Verif Require Import Generated.GenRegistry Model.Conn Proofs.ConnDispatch Proofs.ConnRun Proofs.Product Proofs.ConnPair.
Import ListNotations.

(* a well-formed message of a known type: exactly the subscribers registered for the type when the dispatch starts,
   each once, in registration order - whatever the subscribers do to the handler table from inside their callbacks *)
Theorem C12_known_type_dispatched : forall c m c' o,
  cs c <> Closed -> registered (m_ty m) = true -> m_valid m = true ->
  process_packet c m = (c', o, None) ->
  deliveries o = map (fun u => (u, m)) (users_of (snapshot c (m_ty m))).
Proof. exact known_type_dispatched. Qed.

Theorem C12_dispatch_prefix_on_error : forall hs m c c' o ex,
  run_handlers c hs m = (c', o, ex) -> exists k, deliveries o = map (fun u => (u, m)) (firstn k (users_of hs)).
Proof. exact dispatch_prefix. Qed.

(* every type number outside 1..n (0, n+1, 65535, any large varint): no effect at all *)
Theorem C12_unknown_type_ignored : forall c m, registered (m_ty m) = false -> process_packet c m = (c, [], None).
Proof. exact unknown_type_ignored. Qed.
Theorem C12_registered_iff : forall ty, registered ty = true <-> (1 <= ty <= N.of_nat (length registry))%N.
Proof. exact registered_iff. Qed.

(* an undecodable payload of a known type: protocol error (first fatal cause kept), closed, nothing delivered,
   the exception propagates out of data_received *)
Theorem C12_bad_payload_closes : forall c m,
  cs c <> Closed -> registered (m_ty m) = true -> m_valid m = false ->
  exists c' o, process_packet c m = (c', o, Some (Raw ROther)) /\ cs c' = Closed /\ deliveries o = [] /\
               fatal c' = Some (match fatal c with Some e => e | None => Lib LProtocol end).
Proof. exact bad_payload_closes. Qed.

(* peer requests *)
Theorem C12_ping_answered : forall c m, can_write c -> call_handler c HPing m = (c, [OWrite [T_PING_RESP]], None).
Proof. exact ping_answered. Qed.
Theorem C12_time_answered : forall c m, can_write c -> call_handler c HTime m = (c, [OWrite [T_TIME_RESP]], None).
Proof. exact time_answered. Qed.
Theorem C12_disconnect_answered_then_expected_close : forall c m,
  can_write c ->
  exists c' o, call_handler c HDisc m = (c', OWrite [T_DISC_RESP] :: o, None) /\ cs c' = Closed /\ expected_disconnect c' = true.
Proof. exact disconnect_answered_then_expected_close. Qed.

(* re-entrant scripts: subscriber 2 subscribes 3 and unsubscribes itself, subscriber 1 unsubscribes itself *)
Definition hello : msg := mkMsg T_HELLO_RESP true 0 1 NameEmpty false.
Definition switch : msg := mkMsg 26 true 1 0 NameEmpty false.
Definition scr : list (nat * list action) := [(1%nat, [AUnsub 26 1]); (2%nat, [ASub 26 3; AUnsub 26 2])].
Definition connect : list label :=
  [LStart; LResolveDone None 1; LWake TStart; LTcpDone None; LWake TStart; LIntr true;
   LFinish false; LMade; LMadeWaiter; LWake TFinish; LData [DFrame hello]; LWake TFinish; LIntr false; LSub 26 1; LSub 26 2].
Example C12_reentrant :
  option_map (fun r => last (snd r) [])
    (run (init false false 20480 scr) (connect ++ [LData [DFrame switch; DFrame switch]]))
  = Some [ODeliver 1 switch; ODeliver 2 switch; ODeliver 3 switch].
Proof. vm_compute. reflexivity. Qed.
Example C12_id0_and_beyond :
  forallb (fun ty => negb (registered ty)) [0; 124; 65535; 70000; 1180591620717411303424]%N = true.
Proof. vm_compute. reflexivity. Qed.

(* Two connections of one process are the interleaving product of two connection machines (Proofs/ConnPair.v): what each one
   dispatches, answers and writes is what it does in its own run on its own events; in particular a write that session A's
   transport refuses changes nothing in what session B answers to a peer request. (That the code keeps no write state outside
   the connection is what neighbour_answer_probe of checks/c12.py tests.) *)
Theorem C12_neighbour_sessions_independent : forall ls a b a' b' os,
  pair_run (a, b) ls = Some ((a', b'), os) ->
  run a (mine ls) = Some (a', my_obs os) /\ run b (theirs ls) = Some (b', their_obs os).
Proof. exact pair_projects. Qed.

(* non-vacuity: A's transport refuses its PingResponse and A closes; B, pinged afterwards, writes exactly one PingResponse *)
Definition c12_hello : msg := mkMsg T_HELLO_RESP true 0 1 NameEmpty false.
Definition c12_ping : msg := mkMsg T_PING_REQ true 0 0 NameEmpty false.
Definition c12_connect : list label :=
  [LStart; LResolveDone None 1; LWake TStart; LTcpDone None; LWake TStart; LIntr true;
   LFinish false; LMade; LMadeWaiter; LWake TFinish; LData [DFrame c12_hello]; LWake TFinish; LIntr false].
Example C12_neighbour_answer :
  option_map (fun r => (cs (fst (fst r)), cs (snd (fst r)), last (snd r) (OPA _ _ [])))
    (pair_run (init false false 20480 [], init false false 20480 [])
       (interleave c12_connect c12_connect ++
        [PA label label (LWriteFails true); PA label label (LData [DFrame c12_ping]); PB label label (LData [DFrame c12_ping])]))
  = Some (Closed, Connected, OPB _ _ [OWrite [T_PING_RESP]]).
Proof. vm_compute. reflexivity. Qed.
