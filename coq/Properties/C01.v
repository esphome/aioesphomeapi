(* C01 — plaintext stream reassembly is lossless and independent of TCP segmentation. *)
From Coq Require Import NArith List.
From Verif Require Import Kernel.Varint Model.PlainFrame Proofs.PlainFrameProofs.
Import ListNotations.
Open Scope N_scope.

(* For every frame list, every strict prefix [partial] of a further frame and every way of
   cutting the byte stream into chunks: no error, the deliveries (concatenated over the
   data_received calls) are exactly the frames, in order, each once, and exactly the bytes of
   the incomplete trailing frame are retained. *)
Theorem C01_reassembly :
  forall (fs : list (N * bytes)) (partial : bytes) (chunks : list bytes),
    SP partial ->
    concat chunks = enc_stream fs ++ partial ->
    exists evs, run [] chunks = (evs, partial, Ok) /\ concat evs = map deliver fs.
Proof. exact reassembly. Qed.

(* non-vacuity: one frame, cut inside its payload, then the beginning of a second, short of its announced three bytes *)
Example C01_example :
  run [] [[0; 2; 1; 170]; [187; 0]; [3; 5; 9]] =
  ([[]; [Deliver 1 [170; 187]]; []], [0; 3; 5; 9], Ok).
Proof. vm_compute. reflexivity. Qed.
