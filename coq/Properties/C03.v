(* C03 - Noise sessions interoperate with any conformant responder, for any chunking.
   Model/NoiseFrame.v mirrors noise.py + base.py; the AEAD, the Noise handshake object and UTF-8 decoding are parameters.
   The theorems hold for EVERY instantiation that satisfies the stated hypotheses (an AEAD that decrypts what the device
   encrypted: decrypt n (enc n p) = Some p); that the real ChaCha20-Poly1305 / X25519 / SHA-256 code is such an instance
   is established by differential runs against an independent responder (a test), not by a theorem: PARTIAL in that respect. *)
From Coq Require Import NArith List Bool.
From Verif Require Import Model.NoiseFrame Proofs.NoiseProofs.
Import ListNotations.
Open Scope N_scope.

(* (1) for EVERY byte stream and EVERY way of cutting it into data_received calls: same events (in order), same final
   protocol state, same status as delivering it in one call - and for a stream that ends normally the very same state *)
Theorem C03_segmentation_independent :
  forall decrypt hs_read utf8_ok expected_name (cs : list bytes) (s : st) (c : bytes),
    let '(ev, s', x) := feed decrypt hs_read utf8_ok expected_name s (c :: cs) in
    let r := data_received decrypt hs_read utf8_ok expected_name s (concat (c :: cs)) in
    r_events r = ev /\ r_status r = x /\ core (r_st r) = core s' /\ (x = Ok -> r_st r = s').
Proof. exact segmentation_independent. Qed.

(* (2) one call on a stream of complete frames handles them one after the other *)
Theorem C03_frames_in_order :
  forall decrypt hs_read utf8_ok expected_name (s : st) (fs : list bytes),
    s_buffer s = [] -> Forall short fs ->
    let r := data_received decrypt hs_read utf8_ok expected_name s (flat_map frame_bytes fs) in
    let p := process decrypt hs_read utf8_ok expected_name s fs [] in
    r_events r = r_events p /\ r_status r = r_status p /\ core (r_st r) = core (r_st p).
Proof. exact data_received_frames. Qed.

(* (3) the honest responder: hello (protocol 1, optional NUL-terminated name), handshake reply accepted by the Noise
   object, then the device's messages encrypted under nonces 0, 1, 2, ...: readiness is signalled exactly once and before
   every delivery, the deliveries are exactly the messages in order; if an expected name is configured and a different
   name is announced: BadName carrying the received name for both the ready waiter and the connection, nothing delivered,
   readiness never signalled *)
Theorem C03_honest_session :
  forall decrypt hs_read utf8_ok expected_name (enc : N -> bytes -> bytes),
    (forall n p, decrypt n (enc n p) = Some p) ->
    forall (announced : option bytes) (hello_tail hs_msg : bytes) (pts : list bytes) (s0 : st),
      s_state s0 = NHello -> s_ready s0 = RPending ->
      take_until_nul hello_tail = announced ->
      (forall name, announced = Some name -> utf8_ok name = true) ->
      hs_read hs_msg = true -> Forall wellformed pts ->
      let r := process decrypt hs_read utf8_ok expected_name s0 ((1 :: hello_tail) :: (0 :: hs_msg) :: enc_from enc 0 pts) [] in
      if accepts expected_name announced then
        r_status r = Ok /\
        r_events r = NReadyOk :: map (fun p => NDeliver (be16 (nth 0 p 0) (nth 1 p 0)) (skipn 4 p)) pts /\
        s_state (r_st r) = NReady
      else
        exists name rest, announced = Some name /\
          r_events r = NReadyErr (EBadName name) :: NFatal (EBadName name) :: rest /\ Forall harmless rest.
Proof. exact honest_session. Qed.

(* the name rule: accepted iff no expected name is configured, or no name is announced, or they are equal *)
Example C03_accept_rule :
  (accepts None (Some [100]), accepts (Some [100]) None, accepts (Some [100]) (Some [100]), accepts (Some [100]) (Some [101]), accepts (Some [100]) (Some []))
  = (true, true, true, false, false).
Proof. reflexivity. Qed.
