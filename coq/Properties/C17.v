(* C17 - one converted callback per subscribed message; camera images reassemble per key.
   Model/Subs.v mirrors on_state_msg (client_callbacks.py) with the per-subscription camera buffer, the subscribe_*
   wrappers of client.py with their unsubscribe closures, and subscribe_voice_assistant with its start task.
   The conversion of a message into its model object is C14's; dispatch to the registered handlers is C12's. *)
From Coq Require Import NArith List Bool.
From Verif Require Import Model.Subs Proofs.SubsProofs.
Import ListNotations.
Open Scope N_scope.

(* states: exactly one callback per state message, that message's type and values, in arrival order *)
Theorem C17_state_message_one_callback : forall st ty key vals,
  states_sub st -> on_msg st (MState ty key vals) = (st, [CbState ty key vals]).
Proof. exact state_message_one_callback. Qed.
Theorem C17_one_callback_per_state_message : forall ms st,
  states_sub st -> filter is_state_cb (snd (feed st ms)) = state_cbs ms.
Proof. exact one_callback_per_state_message. Qed.

(* camera: for EVERY interleaving of chunk streams of several keys (and any other messages in between), the images
   completed for a key are the concatenations of that key's chunks since its previous completion *)
Theorem C17_camera_reassembly_per_key : forall k ms st, states_sub st ->
  filter (is_camera_of k) (snd (feed st ms)) = map (CbCamera k) (images (pending (s_stream st) k) (chunks_of k ms)).
Proof. exact camera_reassembly_per_key. Qed.
Theorem C17_camera_reassembly_fresh : forall k ms st, states_sub st -> s_stream st = [] ->
  filter (is_camera_of k) (snd (feed st ms)) = map (CbCamera k) (images [] (chunks_of k ms)).
Proof. exact camera_reassembly_fresh. Qed.

(* the other subscriptions: the matching handler once per message *)
Theorem C17_other_subscriptions_one_call : forall st, s_live st = true ->
  (s_kind st = SubLogs -> forall p, on_msg st (MLog p) = (st, [CbLog p])) /\
  (s_kind st = SubServiceCalls -> forall p, on_msg st (MServiceCall p) = (st, [CbServiceCall p])) /\
  (forall wr, s_kind st = SubHaStates wr -> forall e a once,
     on_msg st (MHaState e a once) = (st, [if wr && once then CbHaRequest e a else CbHaSub e a])) /\
  (s_kind st = SubAdv -> forall p, on_msg st (MAdv p) = (st, [CbAdv p])) /\
  (s_kind st = SubRawAdv -> forall p, on_msg st (MRawAdv p) = (st, [CbRawAdv p])) /\
  (s_kind st = SubConnFree -> forall f l, on_msg st (MConnFree f l) = (st, [CbConnFree f l])) /\
  (forall a n, s_kind st = SubVa a n -> forall c f w, on_msg st (MVaRequest false c f w) = (st, [CbVaStop true])) /\
  (forall n, s_kind st = SubVa true n -> forall d last, on_msg st (MVaAudio d last) = (st, [if last then CbVaStop false else CbVaAudio d])) /\
  (forall a, s_kind st = SubVa a true -> forall p, on_msg st (MVaAnnounce p) = (st, [CbVaAnnounce p])).
Proof. exact other_subscriptions_one_call. Qed.

(* voice assistant: a start is answered with the port its handler returned, or an error response *)
Theorem C17_va_start_calls_handler : forall st a n conv flags wake,
  s_live st = true -> s_kind st = SubVa a n -> va_inv st ->
  exists st', on_msg st (MVaRequest true conv flags wake) =
              (st', [CbVaStart (s_next_task st) conv flags (if wake =? 0 then None else Some wake)]) /\
              ~ In (s_next_task st) (s_running st) /\ In (s_next_task st) (s_running st') /\
              (forall t, In t (s_running st) -> In t (s_running st')).
Proof. exact va_start_calls_handler. Qed.
Theorem C17_va_start_answered : forall st t r, va_inv st -> In t (s_running st) ->
  snd (on_start_done st t r) =
    match r with HPort p => [OWrite (WVaResponse (Some p))] | HNone => [OWrite (WVaResponse None)] | HRaise => [] end /\
  ~ In t (s_running (fst (on_start_done st t r))) /\
  (forall x, x <> t -> (In x (s_running (fst (on_start_done st t r))) <-> In x (s_running st))).
Proof. exact va_start_answered. Qed.
Theorem C17_va_answered_at_most_once : forall st t r, ~ In t (s_running st) -> on_start_done st t r = (st, []).
Proof. exact va_not_running_is_silent. Qed.
Theorem C17_va_unsub_cancels_latest : forall st a n t, s_kind st = SubVa a n -> s_latest st = Some t -> In t (s_running st) ->
  snd (on_unsub st) = [OWrite WVaUnsub; OCancelStart t] /\ ~ In t (s_running (fst (on_unsub st))) /\ s_live (fst (on_unsub st)) = false.
Proof. exact va_unsub_cancels_latest. Qed.
Theorem C17_va_invariant_all_runs : forall es id k, va_inv (fst (sub_run (new_sub id k) es)).
Proof. intros. apply va_inv_run. apply va_inv_new. Qed.

(* an unsubscribe function stops deliveries at once, and for good *)
Theorem C17_unsubscribe_is_immediate : forall st, can_unsub (s_kind st) = true ->
  s_live (fst (on_unsub st)) = false /\ filter is_cb (snd (on_unsub st)) = [].
Proof. exact unsubscribe_is_immediate. Qed.
Theorem C17_no_callback_after_unsubscribe : forall es st, s_live st = false -> filter is_cb (snd (sub_run st es)) = [].
Proof. exact no_callback_after_unsubscribe. Qed.
Theorem C17_other_id_ignored : forall st e,
  match e with SUnsub id | SStartDone id _ _ => id <> s_id st | SSubscribe _ _ => True | SMsg _ => False end ->
  sub_step st e = (st, []).
Proof. exact other_id_ignored. Qed.

(* non-vacuity: two cameras interleaved with a state message; a voice assistant whose first start is answered once,
   however often it completes, and whose second is cancelled by the unsubscribe; the hypotheses used above *)
Example C17_interleaved_cameras :
  snd (srun [] [SSubscribe 1 SubStates;
                SMsg (MCamera 5 [1; 2] false); SMsg (MState 21 9 100); SMsg (MCamera 6 [10] false); SMsg (MCamera 5 [3] true);
                SMsg (MCamera 6 [] false); SMsg (MCamera 5 [4] true); SMsg (MCamera 6 [11] true); SMsg (MCamera 7 [] true)])
  = [(1%nat, OWrite (WSubscribe SubStates)); (1%nat, CbState 21 9 100); (1%nat, CbCamera 5 [1; 2; 3]); (1%nat, CbCamera 5 [4]);
     (1%nat, CbCamera 6 [10; 11]); (1%nat, CbCamera 7 [])].
Proof. vm_compute. reflexivity. Qed.
Example C17_voice_assistant_story :
  snd (srun [] [SSubscribe 2 (SubVa true false); SMsg (MVaRequest true 7 1 0); SMsg (MVaRequest true 8 1 9); SMsg (MVaAudio 3 false);
                SStartDone 2 0 (HPort 5000); SStartDone 2 0 (HPort 1); SUnsub 2; SStartDone 2 1 HNone; SMsg (MVaAudio 4 false)])
  = [(2%nat, OWrite (WSubscribe (SubVa true false))); (2%nat, CbVaStart 0 7 1 None); (2%nat, CbVaStart 1 8 1 (Some 9)); (2%nat, CbVaAudio 3);
     (2%nat, OWrite (WVaResponse (Some 5000))); (2%nat, OWrite WVaUnsub); (2%nat, OCancelStart 1)].
Proof. vm_compute. reflexivity. Qed.
Example C17_hypotheses_met : states_sub (new_sub 1 SubStates) /\ va_inv (new_sub 2 (SubVa true true)) /\ can_unsub (SubVa true true) = true.
Proof. split; [split; reflexivity|split; [apply va_inv_new|reflexivity]]. Qed.
