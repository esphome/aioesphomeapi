(* C20 - address resolution order and fall-backs; zeroconf instances are owned correctly.
   Model/Resolver.v mirrors host_resolver.async_resolve_host and zeroconf.ZeroconfManager; ipaddress.ip_address, the mDNS
   lookup and getaddrinfo are oracles (their answers are inputs), the string predicates of util.py are modelled on strings. *)
From Coq Require Import NArith String List Bool.
From Verif Require Import Model.Resolver Proofs.ResolverProofs.
Import ListNotations.
Open Scope string_scope.

(* a literal address: no lookup at all, exactly its own address *)
Theorem C20_literal_verbatim : forall h a,
  is_local_name h = false -> h_literal h = Some a -> resolve_one h = (Some [a], false, []).
Proof. intros h a Hl Ha. unfold resolve_one. rewrite Hl, Ha. reflexivity. Qed.
(* a bare or .local name: mDNS first, with the name up to the first dot; IPv6 results before IPv4; the OS resolver is
   asked iff mDNS gave nothing or failed *)
Theorem C20_local_name_mdns_first : forall h,
  is_local_name h = true ->
  exists res z rest, resolve_one h = (res, z, CallMdns (before_first_dot (h_name h)) :: rest) /\
    match h_mdns h with
    | MdnsOk v6 v4 => z = false /\ ((v6 ++ v4)%list <> [] -> res = Some (v6 ++ v4)%list /\ rest = []) /\
                      ((v6 ++ v4)%list = [] -> rest = [CallOs (h_name h)] /\ res = match h_os h with OsOk l => Some l | OsErr => None end)
    | MdnsErr => z = true /\ rest = [CallOs (h_name h)] /\ res = match h_os h with OsOk l => Some l | OsErr => None end
    end.
Proof.
  intros h Hl. unfold resolve_one. rewrite Hl. destruct (h_mdns h) as [v6 v4|]; [destruct (v6 ++ v4)%list as [|a l]|].
  - (* mDNS found nothing: the OS resolver decides *)
    destruct (h_os h); do 3 eexists; (split; [reflexivity|]); repeat split; easy.
  - (* mDNS found a :: l *)
    do 3 eexists. split; [reflexivity|]. repeat split; easy.
  - (* mDNS failed: the OS resolver decides *)
    destruct (h_os h); do 3 eexists; (split; [reflexivity|]); repeat split; easy.
Qed.
(* any other name: only the OS resolver *)
Theorem C20_other_name_os_only : forall h,
  is_local_name h = false -> h_literal h = None ->
  resolve_one h = (match h_os h with OsOk l => Some l | OsErr => None end, false, [CallOs (h_name h)]).
Proof. intros h Hl Ha. unfold resolve_one. rewrite Hl, Ha. destruct (h_os h); reflexivity. Qed.
(* results keep the configured order and are never empty; the lookups are made host by host in that order *)
Theorem C20_in_order_never_empty : forall hs l, fst (resolve hs) = inl l -> all_contributions hs = Some l /\ l <> [].
Proof. intros hs l H. destruct (resolve_ok hs l H) as (A & B & _). auto. Qed.
Theorem C20_never_returns_empty : forall hs, fst (resolve hs) <> inl [].
Proof. intros hs H. destruct (resolve_ok hs [] H) as (_ & N & _). exact (N eq_refl). Qed.
Theorem C20_calls_in_order : forall hs l, fst (resolve hs) = inl l -> snd (resolve hs) = flat_map calls_of hs.
Proof. intros hs l H. apply (resolve_ok hs l H). Qed.

(* ownership, for every sequence of manager operations from a fresh manager *)
Theorem C20_never_closes_application_instance : forall ops,
  ~ In (ZClosed App) (snd (zrun (mkZcm false None) ops)) /\ zinv (fst (zrun (mkZcm false None) ops)).
Proof.
  intro ops. destruct (never_closes_application_instance ops _ zinv_fresh) as [A B]. exact (conj B A).
Qed.
(* an instance created inside a lookup is closed again before the lookup returns; stop() closes a library instance *)
Theorem C20_lookup_closes_what_it_created : forall s ok,
  z_inst s = None -> zstep s (ZServiceInfo ok) = (mkZcm false None, [ZCreated; ZClosed Lib]).
Proof. intros s ok H. rewrite service_info_eq, H. reflexivity. Qed.
Theorem C20_lookup_keeps_existing : forall s ok o, z_inst s = Some o -> zstep s (ZServiceInfo ok) = (s, []).
Proof. intros s ok o H. rewrite service_info_eq, H. reflexivity. Qed.
Theorem C20_stop_closes_library_instance : forall s, zinv s -> z_inst s = Some Lib -> zstep s ZClose = (mkZcm false None, [ZClosed Lib]).
Proof. intros s H Hi. cbn [zstep]. rewrite (z_close_eq s H), Hi. reflexivity. Qed.
Theorem C20_stop_keeps_application_instance : forall s, zinv s -> z_inst s = Some App -> zstep s ZClose = (s, []).
Proof. intros s H Hi. cbn [zstep]. rewrite (z_close_eq s H), Hi. reflexivity. Qed.

Example C20_strings :
  (map is_local_name [mkHost "a" None MdnsErr OsErr; mkHost "a.local" None MdnsErr OsErr; mkHost "a.local." None MdnsErr OsErr;
                      mkHost "a.b.local" None MdnsErr OsErr; mkHost "a.example.com" None MdnsErr OsErr; mkHost "1.2.3.4" None MdnsErr OsErr;
                      mkHost "fe80::5%7" None MdnsErr OsErr; mkHost "local" None MdnsErr OsErr; mkHost "alocal" None MdnsErr OsErr],
   before_first_dot "a.b.local")
  = ([true; true; true; true; false; false; false; true; true], "a").
Proof. vm_compute. reflexivity. Qed.
Example C20_mixed :
  resolve [mkHost "10.0.0.1" (Some 1%N) MdnsErr OsErr; mkHost "dev" None (MdnsOk [6%N] [4%N]) OsErr; mkHost "x.local" None (MdnsOk [] []) (OsOk [9%N]);
           mkHost "h.example.com" None MdnsErr (OsOk [7%N; 8%N])]
  = (inl [1; 6; 4; 9; 7; 8]%N, [CallMdns "dev"; CallMdns "x"; CallOs "x.local"; CallOs "h.example.com"]).
Proof. vm_compute. reflexivity. Qed.

(* a host on which the mDNS engine cannot be created (AsyncZeroconf() raises OSError): the failed creation leaves the manager as
   it was - in particular it does not come to believe that it owns whatever instance it is given later - so the application can
   still hand over its own engine, which no later operation closes (covered by C20_never_closes_application_instance: the
   theorem quantifies over all operation histories, these two operations included) *)
Theorem C20_failed_creation_changes_nothing : forall s,
  z_inst s = None -> zstep s ZGetNoSockets = (s, [ZRaise]) /\ zstep s ZServiceInfoNoSockets = (s, [ZRaise]).
Proof. intros s H. cbn. rewrite H. split; reflexivity. Qed.
Example C20_failed_creation_then_application_instance :
  zrun (mkZcm false None) [ZGetNoSockets; ZSetInstance; ZClose; ZServiceInfoNoSockets; ZClose]
  = (mkZcm false (Some App), [ZRaise]).
Proof. vm_compute. reflexivity. Qed.
