(* C07 - the stop callback fires exactly once per established session, never otherwise, and its argument is true iff a graceful
   disconnect had been initiated before the connection closed. *)
From Coq Require Import NArith ZArith List Bool.
From Verif Require Import Model.Conn Proofs.ConnCore Proofs.ConnRun Proofs.ConnQuiet Proofs.ConnReason Proofs.ConnReasonRun Proofs.Product Proofs.ConnPair.
Import ListNotations.

(* stop_calls is the history of on_stop invocations (appended in _cleanup together with the OStop observation).
   In every reachable state: at most one call; exactly one iff the connection was ever CONNECTED and is now CLOSED;
   ever_connected holds exactly in CONNECTED or in (CLOSED after a call). *)
Theorem C07_stop_exactly_once : forall c,
  reachable c ->
  (stop_calls c = [] \/ exists b, stop_calls c = [b]) /\
  ((exists b, stop_calls c = [b]) <-> (ever_connected c = true /\ cs c = Closed)) /\
  (ever_connected c = true <-> (cs c = Connected \/ (cs c = Closed /\ stop_calls c <> []))).
Proof. exact stop_once. Qed.

(* once closed, no transition calls the stop callback again (nor writes, nor delivers), whatever close causes follow *)
Theorem C07_no_second_stop : forall c l r,
  cs c = Closed -> handshake_complete c = false -> is_connected c = false ->
  step c l = Some r -> quietb (snd r) = true /\ cs (fst r) = Closed.
Proof.
  intros c l r H1 H2 H3 E. destruct (closed_quiet c l r E (conj H1 (conj H2 H3))) as [(Hclosed & _) Hquiet].
  split; [exact Hquiet|exact Hclosed].
Qed.

(* the argument of the call is the expected-disconnect flag at the moment of closing (definition of cleanup);
   examples: peer request -> true, reset -> false, force_disconnect whose write fails -> true *)
Definition hello : msg := mkMsg T_HELLO_RESP true 0 1 NameEmpty false.
Definition discreq : msg := mkMsg T_DISC_REQ true 0 0 NameEmpty false.
Definition connect : list label :=
  [LStart; LResolveDone None 1; LWake TStart; LTcpDone None; LWake TStart; LIntr true;
   LFinish false; LMade; LMadeWaiter; LWake TFinish; LData [DFrame hello]; LWake TFinish; LIntr false].
Definition stops (ls : list label) := option_map (fun r => stop_calls (fst r)) (run (init false false 20480 []) ls).
Example C07_peer_request : stops (connect ++ [LData [DFrame discreq]; LConnLostCb; LForce]) = Some [true].
Proof. vm_compute. reflexivity. Qed.
Example C07_reset : stops (connect ++ [LLost (Some (Raw RReset)); LConnLostCb; LForce; LDisconnect]) = Some [false].
Proof. vm_compute. reflexivity. Qed.
Example C07_force_write_fails : stops (connect ++ [LWriteFails true; LForce]) = Some [true].
Proof. vm_compute. reflexivity. Qed.
Example C07_never_connected : stops [LStart; LResolveDone None 1; LWake TStart; LForce; LIntr true; LWake TStart] = Some [].
Proof. vm_compute. reflexivity. Qed.

(* The labels that initiate a graceful disconnect (Proofs/ConnReasonRun.v):
     initiates l  :=  l = LForce  \/  l = LDisconnect  \/  l = LData items with a DisconnectRequest frame among items.
   ONLY IF: in every run from the initial state, a stop call with argument true is preceded (or made) by such a label -
   every prefix of a run is a run, so the label lies at or before the step that made the call. *)
Theorem C07_true_only_if_initiated : forall n e ka scr ls c os,
  run (init n e ka scr) ls = Some (c, os) -> In true (stop_calls c) -> exists l, In l ls /\ initiates l.
Proof. exact true_only_if_initiated. Qed.

Theorem C07_true_only_if_initiated_before : forall n e ka scr l1 l2 c1 os1 c os,
  run (init n e ka scr) (l1 ++ l2) = Some (c, os) -> run (init n e ka scr) l1 = Some (c1, os1) ->
  In true (stop_calls c1) -> exists l, In l l1 /\ initiates l.
Proof. exact true_only_if_initiated_before. Qed.

(* IF: the expected-disconnect flag is never lowered, and from any reachable state in which it is up every later stop call
   has argument true - whatever close cause follows, in whatever order *)
Theorem C07_flag_up_then_true : forall c0 ls c os,
  reachable c0 -> expected_disconnect c0 = true -> run c0 ls = Some (c, os) ->
  expected_disconnect c = true /\ exists suf, stop_calls c = stop_calls c0 ++ suf /\ Forall (eq true) suf.
Proof. intros c0 ls c os Hr. apply flag_up_then_true. apply RI_reachable. exact Hr. Qed.

(* ... so a call with argument false means the flag was down in every earlier state of the run *)
Theorem C07_false_means_flag_never_up : forall n e ka scr l1 l2 c1 os1 c os,
  run (init n e ka scr) (l1 ++ l2) = Some (c, os) -> run (init n e ka scr) l1 = Some (c1, os1) ->
  stop_calls c1 = [] -> In false (stop_calls c) -> expected_disconnect c1 = false.
Proof. exact false_means_flag_never_up. Qed.

(* what raises the flag (Sets c c' = the flag is up in c', and every stop call made by the step has argument true):
   force_disconnect(), in any state; *)
Theorem C07_force_initiates : forall c c' o, step c LForce = Some (c', o) -> Sets c c'.
Proof. exact force_initiates. Qed.
(* disconnect(), as soon as it is past waiting for a pending connect; *)
Theorem C07_disconnect_initiates : forall c c' o,
  finish_fut c <> FPending -> step c LDisconnect = Some (c', o) -> Sets c c'.
Proof. exact disconnect_initiates. Qed.
Theorem C07_disconnect_wait_over_initiates : forall c c' o,
  pc (t_disc c) = PD_Wait -> must_cancel (t_disc c) = false -> step c (LWake TDisc) = Some (c', o) -> Sets c c'.
Proof. exact disconnect_wait_over_initiates. Qed.
(* a valid DisconnectRequest frame from the device, in every reachable state whose handshake is complete - the disconnect
   handler is registered there and no handler dispatched before it can abort the dispatch *)
Theorem C07_disconnect_request_initiates : forall c m rest c' o,
  reachable c -> handshake_complete c = true ->
  m_ty m = T_DISC_REQ -> registered (m_ty m) = true -> m_valid m = true ->
  step c (LData (DFrame m :: rest)) = Some (c', o) -> Sets c c'.
Proof. intros c m rest c' o Hr. apply disconnect_request_initiates. apply RI_reachable. exact Hr. Qed.

Theorem C07_disconnect_handler_registered : forall c,
  reachable c -> handshake_complete c = true -> In (T_DISC_REQ, HDisc) (handlers c).
Proof. exact disconnect_handler_registered. Qed.

(* non-vacuity: the hypotheses of C07_disconnect_request_initiates hold of the connected state reached by `connect` *)
Example C07_disconnect_request_applies :
  match run (init false false 20480 []) connect with
  | Some (c, _) => handshake_complete c = true /\ m_ty discreq = T_DISC_REQ /\ registered (m_ty discreq) = true /\
                   m_valid discreq = true /\ step c (LData [DFrame discreq]) <> None
  | None => False
  end.
Proof. vm_compute. repeat split; discriminate. Qed.
(* and a call with false exists: see C07_reset above (no initiating label in that run before the reset) *)

(* The model of a process with two connections is the interleaving product of two connection machines (Proofs/Product.v,
   Proofs/ConnPair.v: the model has no state outside the connection). In every run of the pair each connection is in the state,
   and has made the observations, of its own run on its own labels - so every theorem above holds for each session of a
   process - and neither can disable a step of the other. That the CODE has no state outside the connection either is what
   the siblings probe of checks/c07.py tests. *)
Theorem C07_sibling_sessions_independent : forall ls a b a' b' os,
  pair_run (a, b) ls = Some ((a', b'), os) ->
  run a (mine ls) = Some (a', my_obs os) /\ run b (theirs ls) = Some (b', their_obs os).
Proof. exact pair_projects. Qed.

Theorem C07_sibling_never_blocks : forall ls a b a' b' oa ob,
  run a (mine ls) = Some (a', oa) -> run b (theirs ls) = Some (b', ob) ->
  exists os, pair_run (a, b) ls = Some ((a', b'), os) /\ my_obs os = oa /\ their_obs os = ob.
Proof. exact pair_enabled. Qed.

(* the reason reported by a connection's stop callback is about THAT connection: true only if a force_disconnect / disconnect
   call on it, or a DisconnectRequest in its own stream, is among ITS labels - whatever its sibling did or received *)
Theorem C07_sibling_true_only_if_initiated_here : forall n e ka scr n2 e2 ka2 scr2 ls a b os,
  pair_run (init n e ka scr, init n2 e2 ka2 scr2) ls = Some ((a, b), os) ->
  In true (stop_calls a) -> exists l, In l (mine ls) /\ initiates l.
Proof. exact sibling_true_only_if_initiated_here. Qed.

(* non-vacuity: two connections established in turns; the device of the first sends a DisconnectRequest, the second is reset *)
Example C07_siblings :
  option_map (fun r => (stop_calls (fst (fst r)), stop_calls (snd (fst r))))
    (pair_run (init false false 20480 [], init false false 20480 [])
       (interleave connect connect ++ [PA label label (LData [DFrame discreq]); PA label label LConnLostCb;
                                       PB label label (LLost (Some (Raw RReset))); PB label label LConnLostCb]))
  = Some ([true], [false]).
Proof. vm_compute. reflexivity. Qed.
