(* C09 - operations end in bounded time with a classified error; first cause wins.
   Proved here: EVERY task outcome of EVERY run is the result, an error of the library hierarchy, or - for disconnect() and
   request/response calls only - a cancellation, and such a cancellation only when the caller had cancelled that very
   operation; classification of every exit of start_connection, of the error wrapper and of what waiters receive; the first
   fatal cause is kept and is what every pending waiter gets; awaits are entered with their timers armed at the documented
   bounds and virtual time cannot pass an armed deadline; and NO AWAIT IS UNGUARDED: in every reachable state every suspended
   coroutine of the connection can be resumed now, or waits under an armed deadline (which time cannot pass and whose firing
   makes it resumable), or waits for the transport's own connection_made call (Proofs/ConnGuard.v); and every armed deadline
   lies within its documented bound of the present.  PARTIAL in one named respect: the numeric composition "hence
   start_connection is over by start + RESOLVE_TIMEOUT + groups * TCP_CONNECT_TIMEOUT" etc. is not one theorem about runs
   (the model has no fairness assumption: that a resumable task IS resumed is asyncio's part); completion times are checked
   on the implementation under the virtual clock on every run. *)
From Coq Require Import NArith ZArith List Bool.
From Verif Require Import Generated.GenConstants Model.Conn Proofs.ConnCalls Proofs.ConnErrors Proofs.ConnHello Proofs.ConnOutcome Proofs.ConnCancel Proofs.ConnGuard Proofs.ConnLeak Proofs.ConnBound.
Import ListNotations.
Open Scope Z_scope.

Theorem C09_wrapper_always_library : forall c e, exists l, wrap_fatal c e = Lib l.
Proof. exact wrap_fatal_is_library. Qed.
Theorem C09_waiters_always_library : forall f, exists l, waiter_exc f = Lib l.
Proof. exact waiter_exc_is_library. Qed.
(* every way start_connection / a failing finish_connection ends: the result, or an error of the library hierarchy *)
Theorem C09_start_classified : forall c c' o, wake_start c = Some (c', o) -> done_ok TStart o.
Proof. exact start_task_classified. Qed.
Theorem C09_finish_failure_classified : forall c e, done_ok TFinish (snd (finish_fail c e)).
Proof. exact finish_fail_classified. Qed.
(* a request/response call: cancellation only when the task itself was cancelled, a timeout becomes TimeoutAPIError,
   a close hands over waiter_exc (first fatal cause) *)
Theorem C09_call_outcome : forall c cid c' o kk,
  wake_call c cid = Some (c', o) -> get_call c cid = Some kk ->
  In (OTaskDone (TCall cid)
        (if must_cancel (get_task c (TCall cid)) then TRaise CancelledErr
         else match deliver_cfut (c_fut kk) with DOk => TOk | DExc e => TRaise e end)) o.
Proof. exact wake_call_outcome. Qed.
Example C09_timeout_is_library : deliver_cfut (CExc PyTimeout) = DExc (Lib LTimeout). Proof. reflexivity. Qed.

(* first cause wins *)
Theorem C09_first_cause_kept : forall c e,
  fatal (fst (report_fatal c e)) = Some (match fatal c with Some f => f | None => e end).
Proof. exact first_cause_kept. Qed.
Theorem C09_waiters_get_first_cause : forall c k,
  cs c <> Closed -> In k (calls c) -> c_fut k = CPending -> existsb (Nat.eqb (c_id k)) (waiters c) = true ->
  exists k', In k' (calls (fst (cleanup c))) /\ c_id k' = c_id k /\ c_fut k' = CExc (waiter_exc (fatal c)).
Proof. exact waiters_get_first_cause. Qed.
(* requires-encryption is not masked by the socket-closed that follows it *)
Example C09_requires_encryption_not_masked :
  let c := fst (report_fatal (init false false 20480 []) (Lib LRequiresEncryption)) in
  (fatal (fst (report_fatal c (Lib LSocketClosed))), wrap_fatal c (Raw RReset), wrap_fatal c CancelledErr)
  = (Some (Lib LRequiresEncryption), Lib LRequiresEncryption, Lib LRequiresEncryption).
Proof. vm_compute. reflexivity. Qed.

(* timers: armed on entry, time cannot pass them, documented bounds *)
Theorem C09_start_arms_timer : forall c c',
  step c LStart = Some (c', []) -> conn_timer c' = Some (now c + RESOLVE_TIMEOUT) /\ In (now c + RESOLVE_TIMEOUT) (armed_deadlines c').
Proof. exact start_arms_resolve_timer. Qed.
Theorem C09_time_respects_deadlines : forall c t c' o,
  step c (LAdvance t) = Some (c', o) -> forall d, In d (armed_deadlines c) -> t <= d.
Proof. exact advance_respects_deadlines. Qed.
Example C09_documented_bounds :
  (RESOLVE_TIMEOUT, TCP_CONNECT_TIMEOUT, HANDSHAKE_TIMEOUT, CONNECT_REQUEST_TIMEOUT, DISCONNECT_CONNECT_TIMEOUT, DISCONNECT_RESPONSE_TIMEOUT)
  = (30 * UNITS_PER_SECOND, 60 * UNITS_PER_SECOND, 30 * UNITS_PER_SECOND, 30 * UNITS_PER_SECOND, 5 * UNITS_PER_SECOND, 10 * UNITS_PER_SECOND).
Proof. reflexivity. Qed.

(* OTaskDone t r is the observation "the awaited operation t ended with r" (t = start_connection, finish_connection,
   disconnect, a request/response call).  In every run from the initial state - every interleaving of user calls, device
   frames, faults, timers and wake-ups - r is the result, an error of the library's hierarchy, or a cancellation, and a
   cancellation only ever ends disconnect() or a request/response call, never one of the two connect phases: no raw socket,
   time-out, index or attribute error escapes.  (Proofs/ConnOutcome.v: the futures of the call table of a reachable state hold
   only the result, asyncio's time-out - which the awaiter turns into TimeoutAPIError -, a library error or a cancellation.) *)
Theorem C09_every_outcome_classified : forall n e ka scr ls c os o t r,
  run (init n e ka scr) ls = Some (c, os) -> In o os -> In (OTaskDone t r) o ->
  r = TOk \/ (exists l, r = TRaise (Lib l)) \/ (r = TRaise CancelledErr /\ (t = TDisc \/ exists cid, t = TCall cid)).
Proof.
  intros n e ka scr ls c os o t r E Ho Hr.
  destruct (run_outcomes ls _ _ _ (F1_init n e ka scr) E) as [_ F]. rewrite Forall_forall in F.
  destruct (F o Ho t r Hr) as [A|[A|[A B]]]; auto. right. right. split; [exact A|].
  destruct t; try discriminate; eauto.
Qed.

Theorem C09_connect_phases_never_cancelled : forall n e ka scr ls c os o t r,
  run (init n e ka scr) ls = Some (c, os) -> In o os -> In (OTaskDone t r) o -> t = TStart \/ t = TFinish ->
  r = TOk \/ exists l, r = TRaise (Lib l).
Proof.
  intros n e ka scr ls c os o t r E Ho Hr Ht.
  destruct (C09_every_outcome_classified n e ka scr ls c os o t r E Ho Hr) as [A|[A|[_ [B|[cid B]]]]]; auto;
    destruct Ht; subst; discriminate.
Qed.

Theorem C09_reachable_futures_classified : forall n e ka scr ls c os k,
  run (init n e ka scr) ls = Some (c, os) -> In k (calls c) -> forall x, c_fut k = CExc x -> x = PyTimeout \/ exists l, x = Lib l.
Proof. exact reachable_futures_classified. Qed.

(* non-vacuity: a call that times out, one that is cancelled by its caller, one that meets a reset *)
Definition hello9 : msg := mkMsg T_HELLO_RESP true 0 1 NameEmpty false.
Definition connect9 : list label :=
  [LStart; LResolveDone None 1; LWake TStart; LTcpDone None; LWake TStart; LIntr true;
   LFinish false; LMade; LMadeWaiter; LWake TFinish; LData [DFrame hello9]; LWake TFinish; LIntr false].
Definition last_obs (ls : list label) := option_map (fun r => last (snd r) []) (run (init false false 20480 []) ls).
Example C09_timeout_outcome :
  last_obs (connect9 ++ [LCallStart [T_PING_REQ] [T_PING_RESP] PAny PAny 1024; LAdvance 1024; LTimer (TkCall 1); LWake (TCall 1)])
  = Some [OTaskDone (TCall 1) (TRaise (Lib LTimeout))].
Proof. vm_compute. reflexivity. Qed.
Example C09_cancelled_outcome :
  last_obs (connect9 ++ [LCallStart [T_PING_REQ] [T_PING_RESP] PAny PAny 1024; LCancel (TCall 1); LWake (TCall 1)])
  = Some [OTaskDone (TCall 1) (TRaise CancelledErr)].
Proof. vm_compute. reflexivity. Qed.
Example C09_reset_outcome :
  last_obs (connect9 ++ [LCallStart [T_PING_REQ] [T_PING_RESP] PAny PAny 1024; LLost (Some (Raw RReset)); LConnLostCb; LWake (TCall 1)])
  = Some [OTaskDone (TCall 1) (TRaise (Lib LReadFailed))].
Proof. vm_compute. reflexivity. Qed.

(* user_cancelled is the model's ghost flag "the caller cancelled this very task"; Model/Conn.v assigns it in exactly one place,
   the LCancel label.  In every run: when disconnect() or a request/response call ends with CancelledError, the flag of that
   task was up before the step - neither the interrupt that a closing connection delivers to the two connect phases, nor the
   cancellation of another operation, nor a time-out ever surfaces as a cancellation of this one.
   (Proofs/ConnCancel.v: invariant over every label - call ids unique and below the counter, every awaited call exists and is
   owned by the task awaiting it, a pending cancel flag or a cancelled future only on tasks their caller cancelled.) *)
Theorem C09_cancellation_only_by_caller : forall n e ka scr l1 c1 os1 l c2 o t,
  run (init n e ka scr) l1 = Some (c1, os1) -> step c1 l = Some (c2, o) ->
  In (OTaskDone t (TRaise CancelledErr)) o -> (t = TDisc \/ exists cid, t = TCall cid) ->
  user_cancelled (get_task c1 t) = true.
Proof. exact cancellation_only_by_caller. Qed.

Theorem C09_awaited_call_owned : forall n e ka scr ls c os t cid,
  run (init n e ka scr) ls = Some (c, os) -> t <> TStart -> awaited (pc (get_task c t)) = Some cid ->
  exists kk, get_call c cid = Some kk /\ c_owner kk = t.
Proof. exact awaited_call_owned. Qed.

(* non-vacuity: the flag of the task that C09_cancelled_outcome cancels, just before its last step *)
Example C09_cancelled_flag :
  option_map (fun r => user_cancelled (get_task (fst r) (TCall 1)))
    (run (init false false 20480 []) (connect9 ++ [LCallStart [T_PING_REQ] [T_PING_RESP] PAny PAny 1024; LCancel (TCall 1)])) = Some true.
Proof. vm_compute. reflexivity. Qed.

(* no await is unguarded.  ready_now c t: the wake-up guard of task t holds; deadline_of c t: the timer standing behind what
   t awaits *)
Theorem C09_no_unguarded_await : forall n e ka scr ls c os t,
  run (init n e ka scr) ls = Some (c, os) -> task_running (get_task c t) = true ->
  ready_now c t \/ (exists d, deadline_of c t = Some d /\ In d (armed_deadlines c)) \/
  (t = TFinish /\ pc (get_task c t) = PF_Create /\ made_waiter c = EPending).
Proof. exact no_unguarded_await. Qed.
Theorem C09_ready_task_resumes : forall n e ka scr ls c os t,
  run (init n e ka scr) ls = Some (c, os) -> task_running (get_task c t) = true -> ready_now c t -> step c (LWake t) <> None.
Proof. exact ready_task_resumes. Qed.
Theorem C09_reached_deadline_fires : forall n e ka scr ls c os t d,
  run (init n e ka scr) ls = Some (c, os) -> task_running (get_task c t) = true -> deadline_of c t = Some d -> d <= now c ->
  exists k c' o, step c (LTimer k) = Some (c', o) /\ ready_now c' t.
Proof. exact reached_deadline_fires. Qed.
Theorem C09_connection_made_arrives : forall c, pc (t_finish c) = PF_Create -> made_waiter c = EPending ->
  exists c', step c LMadeWaiter = Some (c', []) /\ ready_now c' TFinish.
Proof. exact made_waiter_arrives. Qed.
(* the typing half of the invariant: a coroutine is only ever at one of its own program points *)
Theorem C09_every_await_guarded : forall n e ka scr ls c os t, run (init n e ka scr) ls = Some (c, os) -> tguard c t.
Proof. exact every_await_guarded. Qed.

(* every armed deadline is within its documented bound of the present: the two connect phases and disconnect()'s wait ... *)
Theorem C09_phase_deadlines_bounded : forall n e ka scr ls c os,
  run (init n e ka scr) ls = Some (c, os) ->
  (forall d, conn_timer c = Some d -> d <= now c + Z.max RESOLVE_TIMEOUT TCP_CONNECT_TIMEOUT) /\
  (forall d, hs_timer c = Some d -> d <= now c + HANDSHAKE_TIMEOUT) /\
  (forall d, disc_timer c = Some d -> d <= now c + DISCONNECT_CONNECT_TIMEOUT).
Proof. exact phase_deadlines_bounded. Qed.
(* ... and a call's timer is exactly the time its request was written plus its time-out, written no later than now *)
Theorem C09_call_timers_exact : forall n e ka scr ls c os k d,
  run (init n e ka scr) ls = Some (c, os) -> In k (calls c) -> c_timer k = Some d ->
  d = c_sent_at k + c_timeout k /\ c_sent_at k <= now c.
Proof. exact call_timers_exact. Qed.

(* non-vacuity: the deadline behind each await of a plain session (resolve, TCP, handshake, hello, a user call, disconnect) *)
Definition deadline9 (ls : list label) (t : tid) := option_map (fun r => deadline_of (fst r) t) (run (init false false 20480 []) ls).
Example C09_deadline_resolve : deadline9 [LStart] TStart = Some (Some RESOLVE_TIMEOUT).
Proof. vm_compute. reflexivity. Qed.
Example C09_deadline_tcp : deadline9 [LStart; LResolveDone None 1; LWake TStart] TStart = Some (Some TCP_CONNECT_TIMEOUT).
Proof. vm_compute. reflexivity. Qed.
Example C09_deadline_handshake :
  deadline9 [LStart; LResolveDone None 1; LWake TStart; LTcpDone None; LWake TStart; LIntr true; LFinish false; LMadeWaiter; LWake TFinish] TFinish
  = Some (Some HANDSHAKE_TIMEOUT).
Proof. vm_compute. reflexivity. Qed.
Example C09_deadline_call :
  deadline9 (connect9 ++ [LAdvance 100; LCallStart [T_PING_REQ] [T_PING_RESP] PAny PAny 1024]) (TCall 1) = Some (Some 1124).
Proof. vm_compute. reflexivity. Qed.
Example C09_deadline_disconnect : deadline9 (connect9 ++ [LDisconnect]) TDisc = Some (Some DISCONNECT_RESPONSE_TIMEOUT).
Proof. vm_compute. reflexivity. Qed.
