(* C16 - Bluetooth operations are matched by address and handle and never cross-talk.
   Model/Ble.v mirrors the filters of client_callbacks.py (on_bluetooth_handle_message, on_bluetooth_message_types,
   on_bluetooth_gatt_notify_data_response, on_bluetooth_device_connection_response) and every Bluetooth operation of
   client.py as a state machine over the events of the connection; the request/response machinery underneath
   (registration before the write, removal in every ending) is C11. *)
From Coq Require Import NArith ZArith List Bool.
From Verif Require Import Generated.GenConstants Model.Ble Proofs.BleProofs.
Import ListNotations.
Open Scope N_scope.

(* the outcome table of a GATT read / write / notify request *)
Theorem C16_first_own_message_decides : forall resp a h pre m post,
  (forall x, In x pre -> passes resp a h x = false) -> passes resp a h m = true ->
  handle_op resp a h (pre ++ m :: post) =
  match b_kind m with KGattError => OGattError m | KConnection _ => OConnectionDropped m | _ => OResult m end.
Proof. exact own_response_completes. Qed.
Theorem C16_result_carries_own_address_and_handle : forall resp a h ms m,
  handle_op resp a h ms = OResult m -> b_addr m = a /\ b_handle m = h /\ kind_eqb (b_kind m) resp = true.
Proof. exact result_is_own. Qed.
Theorem C16_nothing_own_stays_pending : forall resp a h ms,
  (forall x, In x ms -> passes resp a h x = false) -> handle_op resp a h ms = OPending.
Proof. exact nothing_own_stays_pending. Qed.

(* messages for other addresses or handles never complete, fail or delay it *)
Theorem C16_other_address_is_foreign : forall resp a h m, b_addr m <> a -> passes resp a h m = false.
Proof. exact other_address_is_foreign. Qed.
Theorem C16_other_handle_is_foreign : forall resp a h m, is_conn (b_kind m) = false -> b_handle m <> h -> passes resp a h m = false.
Proof. exact other_handle_is_foreign. Qed.
Theorem C16_foreign_messages_irrelevant : forall resp a h pre x post,
  passes resp a h x = false -> handle_op resp a h (pre ++ x :: post) = handle_op resp a h (pre ++ post).
Proof. exact foreign_messages_irrelevant. Qed.
Theorem C16_no_cross_talk : forall resp1 resp2 a1 h1 a2 h2 m,
  (a1 <> a2 \/ h1 <> h2) -> is_conn (b_kind m) = false -> passes resp1 a1 h1 m = true -> passes resp2 a2 h2 m = false.
Proof. exact no_cross_talk. Qed.
(* every operation (read, write, notify, pair, unpair, clear cache, disconnect, get services, connect), in every phase:
   an event that is none of its business changes nothing and produces nothing *)
Theorem C16_foreign_event_ignored : forall now st e, foreign st e -> op_step now st e = (st, []).
Proof. exact foreign_event_ignored. Qed.
(* concurrency: what an operation does and reports is the same whether or not other operations run beside it,
   for every event sequence *)
Theorem C16_others_do_not_matter : forall id evs s,
  restrict id (fst (brun s evs)) = fst (brun (restrict id s) (filter (keep id) evs)) /\
  obs_of id (snd (brun s evs)) = snd (brun (restrict id s) (filter (keep id) evs)).
Proof. exact others_do_not_matter. Qed.
(* the state machine of a handle operation computes exactly the table above *)
Theorem C16_handle_op_refines : forall now st rq resp a h t ms,
  o_phase st = PRunning -> o_spec st = OpHandle rq resp a h t ->
  snd (run_op now st (map EMsg ms ++ [ETurnEnd])) = match handle_op resp a h ms with OPending => [] | o => [BDone (RMsg o)] end.
Proof. exact handle_op_refines. Qed.
Theorem C16_notify_data_own_only : forall a h pre x post,
  (b_addr x <> a \/ b_handle x <> h \/ kind_eqb (b_kind x) KNotifyData = false) ->
  notify_data a h (pre ++ x :: post) = notify_data a h (pre ++ post).
Proof. exact notify_data_foreign. Qed.

(* a connect that times out: unsubscribe, disconnect for that address, then only the time-out error *)
Theorem C16_connect_waits_until_deadline : forall now st a hc ff t dt e,
  o_phase st = PRunning -> o_spec st = OpConnect a hc ff t dt ->
  match e with EMsg m => is_conn_for a m = false | ETime tm => (tm < o_deadline st)%Z | ECancel id => id <> o_id st | _ => True end ->
  op_step now st e = (st, []).
Proof. exact connect_waits_until_deadline. Qed.
Theorem C16_connect_timeout_disconnects_first : forall now st a hc ff t dt tm,
  o_phase st = PRunning -> o_spec st = OpConnect a hc ff t dt -> (o_deadline st <= tm)%Z ->
  op_step now st (ETime tm) =
  (mkOp (o_id st) (o_spec st) PDisconnecting (now + dt) [], [BUnsubscribed; BWrite (RqDevice BLE_REQ_DISCONNECT) a 0]).
Proof. exact connect_timeout_step. Qed.
Theorem C16_after_timeout_only_the_error : forall now st e,
  timing_out st -> (forall r, o_phase st = PResolved r false -> exists b, r = RConnectTimeout b) ->
  timing_out (fst (op_step now st e)) /\
  (forall r, o_phase (fst (op_step now st e)) = PResolved r false -> exists b, r = RConnectTimeout b) /\
  Forall timeout_obs (snd (op_step now st e)).
Proof. exact after_timeout_only_the_error. Qed.

(* every finished operation leaves nothing subscribed *)
Theorem C16_reachable_well_formed : forall evs, Forall wf (bs_ops (fst (brun bs_init evs))).
Proof. intro evs. apply reachable_wf. constructor. Qed.
Theorem C16_done_means_unsubscribed : forall now st e st' o r,
  wf st -> op_step now st e = (st', o) -> In (BDone r) o -> r <> RReturned -> subscriptions st' = [].
Proof. exact done_unsubscribed. Qed.
Theorem C16_finished_is_inert : forall now st e, o_phase st = PFinished -> op_step now st e = (st, []) /\ subscriptions st = [].
Proof. intros. split; [apply finished_is_inert|apply finished_unsubscribed]; assumption. Qed.
Theorem C16_unsubscribe_is_immediate : forall now st, o_phase st = PActive -> wf st ->
  subscriptions (fst (op_step now st (EUnsub (o_id st)))) = [] /\
  forall m, snd (op_step now (fst (op_step now st (EUnsub (o_id st)))) (EMsg m)) = [].
Proof. exact unsubscribe_is_immediate. Qed.

(* non-vacuity: three concurrent operations, near misses, an error, a connection change, a connect time-out *)
Example C16_concurrent_story :
  let a1 := 5 in let a2 := 6 in
  snd (brun bs_init
    [EStart 1 (OpHandle RqRead KReadResp a1 3 10240); EStart 2 (OpHandle RqWrite KWriteResp a1 4 10240);
     EStart 3 (OpNotify a2 3 10240); EStart 4 (OpConnect 9 false 4 2048 1024);
     EMsg (mkB KReadResp a2 3 70); EMsg (mkB KReadResp a1 4 71); EMsg (mkB KGattError a1 4 72); EMsg (mkB KNotifyData a2 3 73);
     EMsg (mkB KReadResp a1 3 74); EMsg (mkB (KConnection false) a2 0 75); ETurnEnd;
     ETime 2048; ETime 3072])
  = [(1%nat, BWrite RqRead 5 3); (2%nat, BWrite RqWrite 5 4); (3%nat, BWrite (RqNotify true) 6 3); (4%nat, BWrite (RqDevice 5) 9 0);
     (3%nat, BNotifyCb 3 73);
     (1%nat, BDone (RMsg (OResult (mkB KReadResp 5 3 74)))); (2%nat, BDone (RMsg (OGattError (mkB KGattError 5 4 72))));
     (3%nat, BDone (RMsg (OConnectionDropped (mkB (KConnection false) 6 0 75))));
     (4%nat, BUnsubscribed); (4%nat, BWrite (RqDevice 1) 9 0); (4%nat, BDone (RConnectTimeout true))].
Proof. vm_compute. reflexivity. Qed.
Example C16_hypotheses_met :
  foreign (fst (start_op 0 1 (OpHandle RqRead KReadResp 5 3 10240))) (EMsg (mkB KReadResp 5 4 71)) /\
  wf (fst (start_op 0 1 (OpHandle RqRead KReadResp 5 3 10240))) /\
  passes KReadResp 5 3 (mkB KReadResp 5 3 74) = true /\ passes KReadResp 5 3 (mkB KReadResp 5 4 71) = false.
Proof. repeat split; try exact I. right. exists 3. repeat split. discriminate. Qed.

