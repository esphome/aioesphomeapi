(* C02 — everything the client writes conforms to the documented wire format. *)
From Coq Require Import NArith List Bool.
From Verif Require Import Kernel.Varint Model.PlainFrame Model.NoiseFrame Model.WireSpec.
From Verif Require Import Proofs.VarintProofs Proofs.WireProofs Generated.GenRegistry.
Import ListNotations.
Open Scope N_scope.

(* (1) plaintext: for every packet list, the bytes of the single write decode under the documented
   format (zero byte, minimal varint length, minimal varint type, payload) to exactly the packets *)
Theorem C02_plain_conforms :
  forall (pkts : list (N * PlainFrame.bytes)) (fuel : nat), (length pkts < fuel)%nat ->
    spec_decode_plain fuel (PlainFrame.write_packets pkts) = Some pkts.
Proof. exact plain_conforms. Qed.

(* the varints the client writes are minimal: one byte below 128, otherwise the last 7-bit group
   is non-zero; and every element written is a byte *)
Theorem C02_varint_minimal :
  forall v : N,
    (v <= 127 /\ enc v = [v]) \/
    (127 < v /\ exists init last, enc v = init ++ [last] /\ init <> [] /\ last <> 0 /\ last <= 127).
Proof. exact enc_minimal. Qed.
Theorem C02_varint_bytes : forall v : N, Forall (fun b => b < 256) (enc v).
Proof. exact enc_bytes. Qed.

(* (2) noise: for every AEAD that decrypts what it encrypted and adds a 16-byte tag, and every
   history of write_packets calls whose packets fit the 16-bit fields, the concatenation of all
   writes decodes — 0x01, 16-bit BE length, ciphertext under nonces n, n+1, n+2, ... of
   (16-bit type, 16-bit length, payload) — to exactly the packets, in order, the nonce advancing by
   one per packet; and each call produced exactly one write *)
Theorem C02_noise_conforms :
  forall (encrypt : N -> list N -> list N) (decrypt : N -> list N -> option (list N)),
    (forall n pt, decrypt n (encrypt n pt) = Some pt) ->
    (forall n pt, length (encrypt n pt) = (length pt + 16)%nat) ->
    forall (calls : list (list (N * list N))) (nonce : N) (fuel : nat),
      Forall (Forall fits) calls -> (length (concat calls) < fuel)%nat ->
      spec_decode_noise decrypt fuel nonce (concat (snd (session encrypt nonce calls)))
        = Some (nonce + N.of_nat (length (concat calls)), concat calls) /\
      length (snd (session encrypt nonce calls)) = length calls.
Proof. exact noise_conforms. Qed.

(* (3) known finding F9: without the size guard the statement is false — a 65516-byte payload is
   written under a header that does not describe the frame *)
Theorem C02_noise_oversize_refuted :
  exists pkts : list (N * list N),
    spec_decode_noise toy_decrypt 2 0 (snd (write_frames toy_encrypt 0 pkts)) <> Some (1, pkts).
Proof. exact noise_oversize_refuted. Qed.

(* (4) every registered message id fits the 16-bit type field (table regenerated from core.py) *)
Theorem C02_ids_fit : forallb (fun p => fst p <? 65536) registry = true.
Proof. vm_compute. reflexivity. Qed.

(* non-vacuity: the toy cipher meets both AEAD hypotheses, and a concrete two-call session decodes *)
Example C02_example :
  (forall n pt, toy_decrypt n (toy_encrypt n pt) = Some pt) /\
  (forall n pt, length (toy_encrypt n pt) = (length pt + 16)%nat) /\
  spec_decode_noise toy_decrypt 9 0
    (concat (snd (session toy_encrypt 0 [[(7, [1; 2]); (300, [])]; [(1, [9])]]))) =
    Some (3, [(7, [1; 2]); (300, []); (1, [9])]).
Proof. split; [exact toy_correct|]. split; [exact toy_length|]. vm_compute. reflexivity. Qed.
