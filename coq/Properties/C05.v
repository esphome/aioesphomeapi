(* C05 - connection state only moves forward; closed is final; one connect per object.
   Model: Model/Conn.v (labelled transition system mirroring connection.py; one label = one event-loop
   callback or synchronous user call; every interleaving of labels is a run). *)
From Coq Require Import NArith ZArith List Bool.
From Verif Require Import Model.Conn Proofs.ConnCore Proofs.ConnRun Proofs.ConnQuiet Proofs.Product Proofs.ConnPair.
Import ListNotations.

(* every transition of every reachable state - whatever the interleaving of user calls, device events, timers,
   task wake-ups and interrupt callbacks, including several in the same event-loop turn *)
Theorem C05_state_forward : forall c l c' o,
  reachable c -> step c l = Some (c', o) ->
  trans_ok (cs c) (cs c') /\ (cs c = Closed -> cs c' = Closed) /\ flags_ok c /\ flags_ok c'.
Proof. exact state_forward. Qed.

(* over whole runs: the rank never decreases, so a state once left is never re-entered and closed is final *)
Theorem C05_runs_monotone : forall ls c c' os,
  reachable c -> run c ls = Some (c', os) -> (rank (cs c) <= rank (cs c'))%nat.
Proof. intros ls c c' os H. apply run_rank. apply reachable_inv. exact H. Qed.

(* single use: start / finish in any other state raise RuntimeError and change nothing;
   an accepted start needs INITIALIZED and a start task that never ran *)
Theorem C05_start_guard : forall c, cs c <> Init -> step c LStart = Some (c, [ORaise RuntimeErr]).
Proof. exact start_guard. Qed.
Theorem C05_finish_guard : forall c lg, cs c <> SockOpen -> step c (LFinish lg) = Some (c, [ORaise RuntimeErr]).
Proof. exact finish_guard. Qed.
Theorem C05_start_accepted_once : forall c c' o,
  step c LStart = Some (c', o) -> o = [] -> cs c = Init /\ pc (t_start c) = PNone /\ pc (t_start c') = PS_Resolve.
Proof. exact start_accepted. Qed.

(* non-vacuity: a run that connects (plaintext, no login) and is then closed by the peer *)
Definition hello : msg := mkMsg T_HELLO_RESP true 0 1 NameEmpty false.
Definition discreq : msg := mkMsg T_DISC_REQ true 0 0 NameEmpty false.
Definition demo_run : list label :=
  [LStart; LResolveDone None 1; LWake TStart; LTcpDone None; LWake TStart; LIntr true;
   LFinish false; LMade; LMadeWaiter; LWake TFinish; LData [DFrame hello]; LWake TFinish; LIntr false;
   LData [DFrame discreq]].
Example C05_demo_states :
  option_map (fun r => (cs (fst r), stop_calls (fst r))) (run (init false false 20480 []) demo_run) = Some (Closed, [true]).
Proof. vm_compute. reflexivity. Qed.
(* the F1 window: hello response and disconnect request in one chunk while finish_connection waits *)
Example C05_same_turn_close_is_final :
  option_map (fun r => (cs (fst r), is_connected (fst r), ping_timer (fst r)))
    (run (init false false 20480 [])
       [LStart; LResolveDone None 1; LWake TStart; LTcpDone None; LWake TStart; LIntr true;
        LFinish false; LMade; LMadeWaiter; LWake TFinish; LData [DFrame hello; DFrame discreq]; LWake TFinish; LIntr false])
  = Some (Closed, false, None).
Proof. vm_compute. reflexivity. Qed.

(* However many other connections are starting, connected or closing in the same process (Proofs/ConnPair.v: the product of
   connection machines), the state of each one only moves forward along ITS OWN events: *)
Theorem C05_crowd_monotone : forall ls a b a' b' os,
  reachable a -> pair_run (a, b) ls = Some ((a', b'), os) -> (rank (cs a) <= rank (cs a'))%nat.
Proof.
  intros ls a b a' b' os Hr H. destruct (pair_projects _ _ _ _ _ _ H) as [HA _].
  exact (C05_runs_monotone _ _ _ _ Hr HA).
Qed.
(* (that the code has no state outside the connection - no process-wide throttle a start could queue behind - is what
   crowd_probe of checks/c05.py tests) *)
