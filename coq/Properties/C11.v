(* C11 - request/response calls get exactly their responses and leave nothing behind. *)
From Coq Require Import NArith ZArith List Bool.
From Verif Require Import Generated.GenConstants Model.Conn Proofs.ConnCalls Proofs.ConnLeak.
Import ListNotations.
Open Scope Z_scope.

(* what a call collects from ANY sequence of messages handed to its handler: the accepted ones, in arrival order, up to and
   including the first stop message; it is done iff a stop message arrived (handle_complex_message folded over the stream) *)
Theorem C11_collects : forall ms k,
  c_fut k = CPending ->
  c_responses (fold_left call_step ms k) = c_responses k ++ collect (c_append k) (c_stop k) ms /\
  c_fut (fold_left call_step ms k) = (if existsb (eval_pred (c_stop k)) ms then CResult else CPending).
Proof. exact call_collects. Qed.
Theorem C11_done_ignores_later : forall k m, c_fut k <> CPending -> call_step k m = k.
Proof. exact call_done_ignores. Qed.
(* call_step is what handle_complex_message does to its own call, and it touches no other call (non-interference) *)
Theorem C11_handler_is_call_step : forall c cid m k,
  get_call c cid = Some k -> get_call (handle_call_message c cid m) cid = Some (call_step k m).
Proof. exact handle_call_message_own. Qed.
Theorem C11_no_interference : forall c cid cid' m,
  cid' <> cid -> get_call (handle_call_message c cid m) cid' = get_call c cid'.
Proof. exact handle_call_message_others. Qed.

(* however it ends, the task runs the finally block, which removes every handler, the waiter and the timer *)
Theorem C11_finally_always_runs : forall c cid c' o,
  wake_call c cid = Some (c', o) ->
  exists c1 r, c' = fst (finish_task (call_finally c1 cid) (TCall cid) r) /\ c1 = fst (take_cancel c (TCall cid)).
Proof. exact wake_call_runs_finally. Qed.
Theorem C11_finally_leaves_nothing : forall c cid k,
  get_call c cid = Some k -> own_types_only c cid (c_types k) ->
  let c' := call_finally c cid in
  has_handler c' cid = false /\ existsb (Nat.eqb cid) (waiters c') = false /\
  (forall k', get_call c' cid = Some k' -> c_timer k' = None).
Proof. exact call_finally_clean. Qed.
(* outcome: cancellation wins; otherwise result / TimeoutAPIError / the error the closing connection handed over *)
Theorem C11_outcome : forall c cid c' o kk,
  wake_call c cid = Some (c', o) -> get_call c cid = Some kk ->
  In (OTaskDone (TCall cid)
        (if must_cancel (get_task c (TCall cid)) then TRaise CancelledErr
         else match deliver_cfut (c_fut kk) with DOk => TOk | DExc e => TRaise e end)) o.
Proof. exact wake_call_outcome. Qed.
(* the timeout fires exactly at its deadline: time cannot pass an armed deadline, and the timer is due iff reached *)
Theorem C11_time_respects_deadlines : forall c t c' o,
  step c (LAdvance t) = Some (c', o) -> forall d, In d (armed_deadlines c) -> t <= d.
Proof. exact advance_respects_deadlines. Qed.
Theorem C11_timeout_due_iff : forall c cid k,
  get_call c cid = Some k -> c_timer k = Some (c_sent_at k + c_timeout k) ->
  (step c (LTimer (TkCall cid)) <> None <-> c_sent_at k + c_timeout k <= now c).
Proof. exact call_timer_due_iff. Qed.

(* non-vacuity: list-entities style call (accept = not done, stop = done) over an interleaved stream *)
Definition mk ty tag : msg := mkMsg ty true tag 0 NameEmpty false.
Example C11_collect_example :
  collect (PTyNot 19) (PTyIs 19) [mk 16 1; mk 16 2; mk 19 0; mk 16 3] = [mk 16 1; mk 16 2].
Proof. vm_compute. reflexivity. Qed.

(* over all runs.  res c cid: some handler, the waiter or an armed timer of call cid exists in c *)
(* the wake-up that ends a request/response task - with its result, a time-out, the caller's cancellation or the connection's
   error - is the task's last step, leaves nothing of the call registered, and nothing of it ever comes back *)
Theorem C11_call_leaves_nothing : forall n e ka scr l1 c1 os1 cid c2 o l2 c3 os3,
  run (init n e ka scr) l1 = Some (c1, os1) -> step c1 (LWake (TCall cid)) = Some (c2, o) -> run c2 l2 = Some (c3, os3) ->
  (exists r, o = [OTaskDone (TCall cid) r]) /\ ~ res c2 cid /\ ~ res c3 cid.
Proof. exact call_leaves_nothing. Qed.
(* a call whose request could not be written ends at once and has registered nothing *)
Theorem C11_unsent_call_registers_nothing : forall n e ka scr l1 c1 os1 send types ap st tmo c2 o t r l2 c3 os3,
  run (init n e ka scr) l1 = Some (c1, os1) -> step c1 (LCallStart send types ap st tmo) = Some (c2, o) ->
  In (OTaskDone t r) o -> run c2 l2 = Some (c3, os3) ->
  t = TCall (next_cid c1) /\ ~ res c2 (next_cid c1) /\ ~ res c3 (next_cid c1).
Proof. exact unsent_call_registers_nothing. Qed.
(* the library's own calls: hello / login inside finish_connection and the request of disconnect() *)
Theorem C11_hello_call_leaves_nothing : forall n e ka scr l1 c1 os1 cid c2 o l2 c3 os3,
  run (init n e ka scr) l1 = Some (c1, os1) -> pc (t_finish c1) = PF_Hello cid ->
  step c1 (LWake TFinish) = Some (c2, o) -> run c2 l2 = Some (c3, os3) -> ~ res c2 cid /\ ~ res c3 cid.
Proof. exact hello_call_leaves_nothing. Qed.
Theorem C11_disconnect_call_leaves_nothing : forall n e ka scr l1 c1 os1 cid c2 o l2 c3 os3,
  run (init n e ka scr) l1 = Some (c1, os1) -> pc (t_disc c1) = PD_Resp cid ->
  step c1 (LWake TDisc) = Some (c2, o) -> run c2 l2 = Some (c3, os3) -> ~ res c2 cid /\ ~ res c3 cid.
Proof. exact disconnect_call_leaves_nothing. Qed.
(* a step never gives an existing call a handler, waiter or timer it did not have: calls cannot disturb each other's registrations *)
Theorem C11_resources_only_shrink : forall c l c' o cid,
  OT c -> step c l = Some (c', o) -> (cid < next_cid c)%nat -> res c' cid -> res c cid.
Proof. intros c l c' o cid HO E L H. destruct (step_R c l c' o HO E) as [Q1 _ _ _]. exact (Q_res c c' cid Q1 L H). Qed.
Theorem C11_call_handlers_typed : forall n e ka scr ls c os ty cid,
  run (init n e ka scr) ls = Some (c, os) -> In (ty, HCall cid) (handlers c) -> exists k, get_call c cid = Some k /\ In ty (c_types k).
Proof. exact call_handlers_typed. Qed.

(* non-vacuity: a connected session, one call; what is registered for it before and after each kind of ending *)
Definition hello11 : msg := mkMsg T_HELLO_RESP true 0 1 NameEmpty false.
Definition connect11 : list label :=
  [LStart; LResolveDone None 1; LWake TStart; LTcpDone None; LWake TStart; LIntr true;
   LFinish false; LMade; LMadeWaiter; LWake TFinish; LData [DFrame hello11]; LWake TFinish; LIntr false].
Definition registered11 (ls : list label) :=
  option_map (fun r => let c := fst r in
                       (has_handler c 1, existsb (Nat.eqb 1) (waiters c),
                        existsb (fun k => Nat.eqb (c_id k) 1 && match c_timer k with Some _ => true | None => false end) (calls c)))
             (run (init false false 20480 []) ls).
Definition call11 := LCallStart [T_PING_REQ] [T_PING_RESP] PAny PAny 1024.
Example C11_registered_while_waiting : registered11 (connect11 ++ [call11]) = Some (true, true, true).
Proof. vm_compute. reflexivity. Qed.
Example C11_nothing_after_timeout :
  registered11 (connect11 ++ [call11; LAdvance 1024; LTimer (TkCall 1); LWake (TCall 1)]) = Some (false, false, false).
Proof. vm_compute. reflexivity. Qed.
Example C11_nothing_after_cancel : registered11 (connect11 ++ [call11; LCancel (TCall 1); LWake (TCall 1)]) = Some (false, false, false).
Proof. vm_compute. reflexivity. Qed.
Example C11_nothing_after_close :
  registered11 (connect11 ++ [call11; LLost (Some (Raw RReset)); LConnLostCb; LWake (TCall 1)]) = Some (false, false, false).
Proof. vm_compute. reflexivity. Qed.
Example C11_nothing_after_result :
  registered11 (connect11 ++ [call11; LData [DFrame (mkMsg T_PING_RESP true 0 0 NameEmpty false)]; LWake (TCall 1)]) = Some (false, false, false).
Proof. vm_compute. reflexivity. Qed.

(* "fails with a timeout error exactly at its timeout", over all runs: while a call's timer is armed, it is armed at exactly
   (time the request was written) + (its time-out); the timer label is enabled from that instant on and not before, and time
   cannot pass it (C11_time_respects_deadlines) *)
Theorem C11_timeout_exactly_at_its_timeout : forall n e ka scr ls c os cid k,
  run (init n e ka scr) ls = Some (c, os) -> get_call c cid = Some k -> c_timer k <> None ->
  c_timer k = Some (c_sent_at k + c_timeout k) /\ c_sent_at k <= now c /\
  (step c (LTimer (TkCall cid)) <> None <-> c_sent_at k + c_timeout k <= now c).
Proof.
  intros n e ka scr ls c os cid k E G T. destruct (c_timer k) as [d|] eqn:Ed; [|congruence].
  pose proof G as G'. unfold get_call in G'. apply find_some in G'. destruct G' as [I _].
  destruct (call_timers_exact n e ka scr ls c os k d E I Ed) as [H1 H2]. subst d.
  split; [reflexivity|]. split; [exact H2|]. apply call_timer_due_iff; assumption.
Qed.
Example C11_timeout_example :
  option_map (fun r => map c_timer (calls (fst r)))
    (run (init false false 20480 []) (connect11 ++ [LAdvance 100; call11])) = Some [None; Some 1124].
Proof. vm_compute. reflexivity. Qed.
