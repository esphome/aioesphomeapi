(* C04 - the encrypted transport fails closed with a specific error; no forged delivery.
   Ideal AEAD as a HYPOTHESIS of the theorems (not an axiom): what decrypts under nonce n is what the device really sent
   under nonce n.  Real ChaCha20-Poly1305 meets this only computationally: PARTIAL in that named respect (and the real
   crypto code is exercised by the exhaustive tamper sweep of the correspondence check). *)
From Coq Require Import NArith List Bool.
From Verif Require Import Model.NoiseFrame Proofs.NoiseProofs.
Import ListNotations.
Open Scope N_scope.

(* (1) data phase, EVERY sequence of frames the adversary puts on the wire (flipped, truncated and re-framed, duplicated,
   reordered, dropped, forged ...) under every chunking (C03_segmentation_independent): what is delivered is a prefix of
   what the device really sent under the consecutive nonces *)
Theorem C04_prefix_only :
  forall decrypt hs_read utf8_ok expected_name (sent : list bytes),
    (forall n c p, decrypt n c = Some p -> nth_error sent (N.to_nat n) = Some p) ->
    forall (fs : list bytes) (s : st) (acc : list nevent),
      s_state s = NReady ->
      exists j, (j <= length fs)%nat /\
        deliveries (r_events (process decrypt hs_read utf8_ok expected_name s fs acc)) =
        deliveries acc ++ flat_map handed (firstn j (skipn (N.to_nat (s_dec_nonce s)) sent)).
Proof. exact data_phase_prefix_only. Qed.

(* (2) the first frame that fails authentication raises InvalidTag out of data_received ... *)
Theorem C04_bad_data_frame :
  forall decrypt hs_read utf8_ok expected_name s f,
    s_state s = NReady -> decrypt (s_dec_nonce s) f = None ->
    dispatch decrypt hs_read utf8_ok expected_name s f = (s, [], Some RInvalidTag).
Proof. exact bad_data_frame. Qed.
(* ... which kills the transport, is reported as the invalid-encryption-key error, and nothing that follows is looked at *)
Theorem C04_raise_kills_transport :
  forall encrypt decrypt hs_init hs_read utf8_ok expected_name x c r,
    transport_dead x = false -> s_transport (ss x) = true ->
    r_status (data_received decrypt hs_read utf8_ok expected_name (ss x) c) = Raised r ->
    transport_dead (fst (step encrypt decrypt hs_init hs_read utf8_ok expected_name x (OData c))) = true /\
    In (NFatal (match r with RInvalidTag => EInvalidKey | _ => ERawOther end))
       (snd (step encrypt decrypt hs_init hs_read utf8_ok expected_name x (OData c))).
Proof. exact raise_kills_transport. Qed.
Theorem C04_dead_transport_ignores :
  forall encrypt decrypt hs_init hs_read utf8_ok expected_name x c,
    transport_dead x = true -> step encrypt decrypt hs_init hs_read utf8_ok expected_name x (OData c) = (x, []).
Proof. exact dead_transport_ignores. Qed.

(* (3) handshake-phase deviations: closed, the specific error for the connection AND for a pending readiness wait,
   readiness never signalled, nothing delivered *)
Theorem C04_hello_empty : forall d h u e s, s_state s = NHello -> closes_with EEmptyHello s (dispatch d h u e s []).
Proof. exact hello_empty. Qed.
Theorem C04_hello_unknown_protocol : forall d h u e s p rest,
  s_state s = NHello -> p <> 1 -> closes_with (EUnknownProto p) s (dispatch d h u e s (p :: rest)).
Proof. exact hello_unknown_protocol. Qed.
Theorem C04_hello_bad_name : forall d h u e s rest name en,
  s_state s = NHello -> take_until_nul rest = Some name -> u name = true ->
  e = Some en -> bytes_eqb en name = false -> closes_with (EBadName name) s (dispatch d h u e s (1 :: rest)).
Proof. exact hello_bad_name. Qed.
Theorem C04_handshake_empty : forall d h u e s, s_state s = NHandshake -> closes_with EEmptyHandshake s (dispatch d h u e s []).
Proof. exact handshake_empty. Qed.
Theorem C04_handshake_mac_failure : forall d h u e s b,
  s_state s = NHandshake -> b <> 0 -> u MAC_FAILURE = true -> closes_with EInvalidKey s (dispatch d h u e s (b :: MAC_FAILURE)).
Proof. exact handshake_mac_failure. Qed.
Theorem C04_handshake_other_failure : forall d h u e s b text,
  s_state s = NHandshake -> b <> 0 -> u text = true -> bytes_eqb text MAC_FAILURE = false ->
  closes_with (EHandshakeFail text) s (dispatch d h u e s (b :: text)).
Proof. exact handshake_other_failure. Qed.
Theorem C04_handshake_wrong_key : forall d h u e s msg,
  s_state s = NHandshake -> h msg = false -> dispatch d h u e s (0 :: msg) = (s, [], Some RInvalidTag).
Proof. exact handshake_wrong_key. Qed.

(* (4) the configured key *)
Theorem C04_psk_gate : forall a2b, (exists k, decode_psk a2b = Some k) <-> (exists k, a2b = Some k /\ length k = 32%nat).
Proof. exact psk_gate. Qed.

(* (5) the device that speaks the other framing to a PLAINTEXT client (Model/PlainFrame.v, Proofs/PlainSticky.v): once a read has
   reported a complete first byte that is not the plaintext preamble (0x01 = a Noise device: requires-encryption; anything else:
   protocol error), every later read - of any content, cut anywhere - ends in the error again and delivers nothing *)
From Verif Require Kernel.Varint Model.PlainFrame Proofs.PlainSticky.
Theorem C04_plaintext_error_is_final : forall buf c later,
  PlainFrame.r_status (PlainFrame.data_received buf c) = PlainFrame.Errored ->
  (exists pre rest, Varint.read_varuint (PlainFrame.r_buffer (PlainFrame.data_received buf c)) = Some (pre, rest)) ->
  PlainSticky.silent_from (PlainFrame.r_buffer (PlainFrame.data_received buf c)) later.
Proof. exact PlainSticky.plain_error_is_final. Qed.

(* non-vacuity: the Noise hello of a device named "dev", then one later read that holds two well-formed plaintext frames *)
Example C04_plaintext_error_example :
  let r := PlainFrame.data_received [] [1; 0; 5; 1; 100; 101; 118; 0] in
  PlainFrame.r_status r = PlainFrame.Errored /\ PlainFrame.r_events r = [PlainFrame.ErrRequiresEncryption] /\
  (exists pre rest, Varint.read_varuint (PlainFrame.r_buffer r) = Some (pre, rest)) /\
  PlainFrame.r_events (PlainFrame.data_received (PlainFrame.r_buffer r) [0; 0; 8; 0; 2; 25; 8; 1]) = [PlainFrame.ErrRequiresEncryption].
Proof. vm_compute. repeat split. eexists; eexists; reflexivity. Qed.
