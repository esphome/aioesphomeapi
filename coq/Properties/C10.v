(* C10 - keepalive: ping only when idle; a silent peer is dropped 4.5K after the first unanswered ping, i.e. between
   5.5K and 6.5K after its last message; a live peer never.
   Model/Keepalive.v mirrors the keepalive trio of connection.py with K = 2h for ARBITRARY h > 0 and the ratio read from
   the source (GenConstants); the adversary is any sequence of events (message arrivals, the two timers, time moving up to
   the next armed deadline), i.e. every arrival schedule. *)
From Coq Require Import ZArith List Bool Lia.
From Verif Require Import Generated.GenConstants Model.Keepalive Proofs.KeepaliveProofs Proofs.Product.
Import ListNotations.
Open Scope Z_scope.

Definition reachable (h : Z) (s : ka) : Prop := exists es o, ka_run h (ka_init h) es = Some (s, o).
Lemma reachable_KI h s : 0 < h -> reachable h s -> KI h s.
Proof. intros Hh (es & o & E). exact (proj1 (KI_run h es _ _ _ Hh (KI_init h Hh) E)). Qed.

(* (1) at a keepalive tick (always at a multiple of K) a ping is written iff no message arrived since the previous tick *)
Theorem C10_ping_iff_idle : forall h s s' o,
  0 < h -> reachable h s -> ka_step h s KTick = Some (s', o) ->
  k_now s = 2 * h * (g_ticks s + 1) /\
  ((g_arr_since_tick s = false /\ g_last_arr s <= k_now s - 2 * h /\ o = [KPingSent (k_now s)]) \/
   (g_arr_since_tick s = true /\ k_now s - 2 * h <= g_last_arr s /\ o = [])).
Proof.
  intros h s s' o Hh Hr E. pose proof (reachable_KI h s Hh Hr) as Hi.
  pose proof (i_ping_at _ _ Hi) as Ping_at. pose proof (i_since _ _ Hi) as Since.
  destruct (ka_step_inv _ _ _ _ _ E) as (_ & En & _ & ->). split; [lia|].
  rewrite (i_pending _ _ Hi). destruct (g_arr_since_tick s); [right|left]; repeat split; lia.
Qed.

(* (2)+(3) death happens exactly 4.5K (= 9h) after the first ping since the last message, that ping was written at a tick at
   least K after the last message, and hence between 5.5K (= 11h) and 6.5K (= 13h) after the last message *)
Theorem C10_dead_exactly : forall h s s' o,
  0 < h -> reachable h s -> ka_step h s KPong = Some (s', o) ->
  exists p j, g_first_ping s = Some p /\ p = 2 * h * j /\ 1 <= j /\
              o = [KDead (p + 9 * h)] /\ k_now s = p + 9 * h /\
              g_last_arr s <= p - 2 * h /\
              11 * h <= k_now s - g_last_arr s <= 13 * h.
Proof.
  intros h s s' o Hh Hr E. destruct (ka_step_inv _ _ _ _ _ E) as (Ed & Ep & _ & ->).
  destruct (armed_pong _ _ _ (reachable_KI h s Hh Hr) Ed Ep) as (p & j & Ef & En & (Hj & Hp) & Hb & Hc).
  exists p, j. rewrite En. repeat split; try assumption; lia.
Qed.

(* nothing else pings or kills; a message disarms the pong deadline (a peer that keeps talking is never dropped) *)
Theorem C10_obs_sources : forall h s e s' o x,
  ka_step h s e = Some (s', o) -> In x o ->
  match x with KPingSent t => e = KTick /\ t = k_now s | KDead t => e = KPong /\ t = k_now s end.
Proof.
  intros h s e s' o x E Hx. destruct (ka_step_inv _ _ _ _ _ E) as [_ Q]. destruct e.
  - (* KArr *) destruct Q as [_ ->]. destruct Hx.
  - (* KTick *) destruct Q as (_ & _ & ->). destruct (k_pending s); [|destruct Hx]. destruct Hx as [<-|[]]. auto.
  - (* KPong *) destruct Q as (_ & _ & ->). destruct Hx as [<-|[]]. auto.
  - (* KAdv *) destruct Q as (_ & _ & _ & ->). destruct Hx.
Qed.
Theorem C10_arrival_disarms : forall h s s' o, ka_step h s KArr = Some (s', o) -> k_pong s' = None /\ k_pending s' = false /\ o = [].
Proof. intros h s s' o E. destruct (ka_step_inv _ _ _ _ _ E) as (_ & -> & ->). auto. Qed.
(* all observations of all schedules: pings at multiples of K, death at a multiple of K plus 4.5K *)
Theorem C10_all_runs : forall h es s' o x,
  0 < h -> ka_run h (ka_init h) es = Some (s', o) -> In x o ->
  match x with
  | KPingSent t => exists j, 1 <= j /\ t = 2 * h * j
  | KDead t => exists p j, 1 <= j /\ p = 2 * h * j /\ t = p + 9 * h
  end.
Proof.
  intros h es s' o x Hh E. destruct (KI_run h es _ _ _ Hh (KI_init h Hh) E) as [_ F]. exact (proj1 (Forall_forall _ _) F x).
Qed.

Example C10_ratio : (KEEP_ALIVE_RATIO_NUM, KEEP_ALIVE_RATIO_DEN) = (9, 2). Proof. reflexivity. Qed.
(* K = 10 (h = 5): messages at 3, 10, 19 then silence: no ping at 10 or 20 (traffic in both intervals), pings from 30 on, dead at 30 + 45 = 75 *)
Example C10_demo : ka_sim 200 5 (ka_init 5) [3; 10; 19] 200 = [KPingSent 30; KPingSent 40; KPingSent 50; KPingSent 60; KPingSent 70; KDead 75].
Proof. vm_compute. reflexivity. Qed.

(* Several sessions in one process. Two keep-alive schedules side by side (same K or not, established at different times) are the interleaving product of two
   machines (Proofs/Product.v): each one's pings and death are those of its own run on its own events, so the theorems above
   hold for each session whatever its neighbour does. That the CODE keeps no keep-alive state outside the connection is what
   the neighbour-session schedules of checks/c10.py test. *)
Definition ka_pair_run (h1 h2 : Z) :=
  prun ka ka kev kev (list kobs) (list kobs) (ka_step h1) (ka_step h2).

Lemma ka_run_is_runA : forall h es s,
  ka_run h s es = option_map (fun r => (fst r, concat (snd r))) (runA ka kev (list kobs) (ka_step h) s es).
Proof.
  induction es as [|e r IH]; intro s; cbn; [reflexivity|].
  destruct (ka_step h s e) as [[s1 o]|]; [|reflexivity]. rewrite IH.
  destruct (runA ka kev (list kobs) (ka_step h) s1 r) as [[s2 os]|]; reflexivity.
Qed.

(* runB is runA under another name *)
Lemma ka_run_is_runB : forall h es s,
  ka_run h s es = option_map (fun r => (fst r, concat (snd r))) (runB ka kev (list kobs) (ka_step h) s es).
Proof. exact ka_run_is_runA. Qed.

Theorem C10_neighbour_sessions_independent : forall h1 h2 es a b a' b' os,
  ka_pair_run h1 h2 (a, b) es = Some ((a', b'), os) ->
  ka_run h1 a (labelsA kev kev es) = Some (a', concat (obsA (list kobs) (list kobs) os)) /\
  ka_run h2 b (labelsB kev kev es) = Some (b', concat (obsB (list kobs) (list kobs) os)).
Proof.
  intros h1 h2 es a b a' b' os H.
  destruct (product_projects _ _ _ _ _ _ (ka_step h1) (ka_step h2) es a b a' b' os H) as [HA HB].
  rewrite ka_run_is_runA, ka_run_is_runB, HA, HB. split; reflexivity.
Qed.

(* every ping of a session that runs beside another one is written at a multiple of ITS OWN K after ITS OWN start, and its
   death comes 4.5 K after such a ping - for all schedules of both sessions *)
Theorem C10_neighbour_all_runs : forall h1 h2 es a' b' os x,
  0 < h1 -> ka_pair_run h1 h2 (ka_init h1, ka_init h2) es = Some ((a', b'), os) ->
  In x (concat (obsA (list kobs) (list kobs) os)) ->
  match x with
  | KPingSent t => exists j, 1 <= j /\ t = 2 * h1 * j
  | KDead t => exists p j, 1 <= j /\ p = 2 * h1 * j /\ t = p + 9 * h1
  end.
Proof.
  intros h1 h2 es a' b' os x Hh H Hx.
  destruct (C10_neighbour_sessions_independent _ _ _ _ _ _ _ _ H) as [HA _].
  exact (C10_all_runs h1 _ _ _ x Hh HA Hx).
Qed.
