(* finish_connection, disconnect(), request/response tasks: each wake-up preserves the invariant. *)
From Coq Require Import NArith ZArith List Bool Lia Relations.
From RecordUpdate Require Import RecordSet.
From Verif Require Import Generated.GenConstants Model.Conn Proofs.ConnMoves Proofs.ConnCore Proofs.ConnSync Proofs.ConnStep.
Import ListNotations RecordSetNotations.
Open Scope Z_scope.
Open Scope list_scope.

Definition with_helper (k : core) (h : hstat) : core :=
  mkCore (k_cs k) (k_conn k) (k_hs k) (k_armed k) (k_stops k) (k_ever k) (k_ping k) (k_pong k) (k_waiters k)
         (k_socket k) h (k_ps k) (k_pf k) (k_pd k) (k_expected k).
Lemma closeK_with_helper k h : closeK (with_helper k h) = closeK k.
Proof. destruct k; unfold closeK, releaseK, with_helper; cbn. destruct k_cs; reflexivity. Qed.
Lemma with_helper_id k : with_helper k (k_helper k) = k.
Proof. destruct k; reflexivity. Qed.

Lemma core_set_task_call c cid k : core_of (set_task c (TCall cid) k) = core_of c.
Proof. reflexivity. Qed.

Lemma InvK_set_pd k pd : InvK k -> InvK (with_pcs k (k_ps k) (k_pf k) pd).
Proof.
  intro H. pose proof H as (_ & [J1 J2] & _). apply InvK_with_pcs; [exact H|exact J1|exact J2|exact (closed_helper k H)].
Qed.

Lemma InvK_with_helper_open k h : InvK k -> k_cs k <> Closed -> InvK (with_helper k h).
Proof. intros (F & J & S & C) Hn. split; [exact F|]. split; [exact J|]. split; [exact S|]. intro Hc. contradiction. Qed.

Lemma InvK_assign_helper_ready k h :
  InvK k -> k_pf k = PF_Create -> InvK (with_pcs (with_helper k h) (k_ps k) PF_Ready (k_pd k)).
Proof.
  intros (F & [J1 J2] & S & C) Ep. rewrite Ep in J2. split; [exact F|]. split; [exact (conj J1 J2)|]. split; [exact S|].
  intro Hc. destruct (C Hc) as (C1 & C2 & C3 & C4 & _). exact (conj C1 (conj C2 (conj C3 (conj C4 (or_intror eq_refl))))).
Qed.

(* from a state whose core may differ from an invariant state in the helper attribute only (create_connection returned, the
   helper was just assigned) *)
Lemma finish_after_ready_ok c0 c h :
  core_of c = with_helper (core_of c0) h -> pc (t_finish c0) = PF_Create \/ pc (t_finish c0) = PF_Ready ->
  StepOK c0 (fst (finish_after_ready c)).
Proof.
  intros Eh Hp H0. unfold finish_after_ready. set (ca := c <| hs_timer := None |>).
  assert (Hcs : cs c0 = SockOpen \/ cs c0 = Closed).
  { destruct H0 as (_ & [_ J2] & _). cbn [core_of k_pf k_cs] in J2. destruct Hp as [Hp|Hp]; rewrite Hp in J2; exact J2. }
  replace (cs ca) with (cs c0) by (symmetry; exact (f_equal k_cs Eh)).
  destruct Hcs as [Hs|Hc]; rewrite ?Hs, ?Hc.
  - (* HANDSHAKE_COMPLETE, then the hello is written *)
    assert (Ha : Inv ca).
    { unfold Inv. change (core_of ca) with (core_of c). rewrite Eh. apply InvK_with_helper_open; [exact H0|]. cbn [core_of k_cs]. congruence. }
    set (c1 := internal_handlers (set_state (set_task ca TFinish ((get_task ca TFinish) <| pc := PF_Hello (next_cid ca) |>)) HsDone)).
    assert (E1 : core_of c1 = hsdoneK (core_of ca) (PF_Hello (next_cid ca))).
    { unfold c1, internal_handlers. rewrite !core_add_handler. reflexivity. }
    assert (H1 : Inv c1).
    { unfold Inv. rewrite E1. apply InvK_hsdone; [exact Ha|exact (eq_trans (f_equal k_cs Eh) Hs)|eauto]. }
    match goal with |- context [call_begin c1 ?a ?b ?d ?e ?f ?g] =>
      pose proof (R_call_begin c1 a b d e f g) as HR; destruct (call_begin c1 a b d e f g) as [[[c2 o] ex] cid] end.
    cbn [fst] in HR. destruct (R_ok _ _ HR) as (Hoc & _ & _ & _ & _ & HI). apply HI in H1.
    rewrite E1 in Hoc. cbn [k_cs hsdoneK core_of] in Hoc.
    destruct ex as [e|].
    + pose proof (finish_fail_ok c2 e H1) as K. destruct (finish_fail c2 e) as [c3 o3]. apply closing_ok, K.
    + split; [exact H1|]. cbn [fst]. destruct Hoc as [-> | ->]; unfold trans_ok; auto.
  - (* closed while the handshake completed *)
    apply closing_ok, (finish_fail_from c0 ca Interrupted H0). change (core_of ca) with (core_of c). rewrite Eh. apply closeK_with_helper.
Qed.

Lemma finish_success_ok c cid : pc (t_finish c) = PF_Hello cid -> StepOK c (fst (finish_success c)).
Proof.
  intros Ep H. unfold finish_success.
  pose proof (core_set_finish_future (c <| intr_finish := IExited |>)) as E2. set (c2 := set_finish_future (c <| intr_finish := IExited |>)) in *.
  change (core_of (c <| intr_finish := IExited |>)) with (core_of c) in E2.
  assert (Hcs : cs c = HsDone \/ cs c = Closed).
  { destruct H as (_ & [_ J2] & _). cbn [core_of k_pf k_cs] in J2. rewrite Ep in J2. exact J2. }
  replace (cs c2) with (cs c) by (symmetry; exact (f_equal k_cs E2)).
  destruct Hcs as [Hh|Hc]; rewrite ?Hh, ?Hc.
  - (* CONNECTED *)
    split; [|unfold trans_ok; auto 6]. unfold Inv.
    change (core_of (fst (finish_task (schedule_keep_alive (set_state c2 Connected <| ever_connected := true |>)) TFinish TOk)))
      with (connectedK (core_of c2) (now c2 + keepalive c2)).
    rewrite E2. apply InvK_connected; [exact H|exact Hh].
  - (* closed while the hello was answered *)
    pose proof (cleanup_finish_ok c c2 TFinish (TRaise (wrap_fatal (fst (cleanup c2)) Interrupted)) (fun x => x) H (f_equal closeK E2)
                  (fun x => eq_refl)) as K.
    destruct (cleanup c2) as [c3 o3]. apply closing_ok, K.
Qed.

Lemma wake_finish_ok c c' o : wake_finish c = Some (c', o) -> StepOK c c'.
Proof.
  unfold wake_finish. intro E.
  assert (F : forall x e, R (core_of c) (core_of x) -> StepOK c (fst (finish_fail x e))).
  { intros x e HR. apply (StepOK_after _ x _ HR). intro H. apply closing_ok, finish_fail_ok, H. }
  (* every wake-up first takes a pending cancel request, which leaves the core and the program point as they are *)
  pose proof (core_take_cancel c TFinish) as E1. pose proof (pc_take_cancel c TFinish) as Ep1.
  destruct (take_cancel c TFinish) as [c1 mc]. cbn [fst] in E1, Ep1.
  destruct (pc (get_task c TFinish)) as [| | | | |cid| | | |]; try discriminate.
  - (* PF_Create: create_connection returned *)
    destruct (_ || _); [|discriminate].
    match type of E with match ?d with _ => _ end = _ => destruct d as [|e] end.
    + set (c2 := c1 <| helper := helper_obj c1 |> <| hs_timer := Some (now c1 + HANDSHAKE_TIMEOUT) |>) in *.
      assert (E2 : core_of c2 = with_helper (core_of c1) (helper_obj c1)) by reflexivity.
      assert (FH : forall e, StepOK c1 (fst (finish_fail c2 e))).
      { intros e H1. apply closing_ok, (finish_fail_from c1 c2 e H1). rewrite E2. apply closeK_with_helper. }
      apply (StepOK_after _ c1 _ (R_eq _ _ (eq_sym E1))).
      destruct (ready c2); apply some_pair_fst in E; subst c'; try apply FH.
      * (* the helper is assigned; the phase waits for it *)
        intro H1. split; [|left; reflexivity]. unfold Inv. cbn [fst].
        change (InvK (with_pcs (with_helper (core_of c1) (helper_obj c1)) (k_ps (core_of c1)) PF_Ready (k_pd (core_of c1)))).
        apply InvK_assign_helper_ready; [exact H1|exact Ep1].
      * exact (finish_after_ready_ok c1 c2 _ E2 (or_introl Ep1)).
    + set (c2 := match transport c1 with TOpen => c1 <| transport := TClosing None |> | _ => c1 end) in *.
      assert (E2 : core_of c2 = core_of c) by (rewrite <- E1; unfold c2; destruct (transport c1); reflexivity).
      pose proof (F c2 e (R_eq _ _ (eq_sym E2))) as K. destruct (finish_fail c2 e) as [c3 o3].
      apply some_pair_fst in E. subst c'. exact K.
  - (* PF_Ready: the helper is ready, or failed *)
    destruct (_ || _); [|discriminate].
    destruct mc; [|destruct (ready c1)]; apply some_pair_fst in E; subst c'; try (apply F, R_eq; symmetry; exact E1).
    apply (StepOK_after _ c1 _ (R_eq _ _ (eq_sym E1))).
    exact (finish_after_ready_ok c1 c1 _ (eq_sym (with_helper_id (core_of c1))) (or_intror Ep1)).
  - (* PF_Hello cid: hello / login answered *)
    destruct (get_call c cid) as [kk|]; [|discriminate].
    destruct (_ || _); [|discriminate].
    pose proof (R_call_finally c1 cid) as HR. rewrite E1 in HR.
    assert (Ep2 : pc (t_finish (call_finally c1 cid)) = PF_Hello cid) by (rewrite t_finish_call_finally; exact Ep1).
    match type of E with match ?d with _ => _ end = _ => destruct d as [|e] end;
      [destruct (check_hello_login _ _)|]; apply some_pair_fst in E; subst c'; try (apply F; exact HR).
    exact (StepOK_after _ _ _ HR (finish_success_ok _ cid Ep2)).
Qed.

Lemma R_then_finish c c2 t r :
  t <> TFinish -> R (core_of c) (core_of c2) -> StepOK c (fst (finish_task c2 t r)).
Proof.
  intros Ht HR. apply (StepOK_after _ c2 _ HR). intro H2.
  destruct (finish_task_ok c2 t r H2) as [A B]; [intro; contradiction|]. split; [exact A|left; exact B].
Qed.

Lemma R_then_set_pd c c2 k : R (core_of c) (core_of c2) -> StepOK c (set_task c2 TDisc k).
Proof.
  intro HR. apply (StepOK_after _ c2 _ HR). intro H2. split; [|left; reflexivity].
  exact (InvK_set_pd (core_of c2) (pc k) H2).
Qed.

Lemma R_then_cleanup_finish c c2 t r :
  t <> TFinish -> R (core_of c) (core_of c2) -> StepOK c (fst (finish_task (fst (cleanup c2)) t r)).
Proof. intros Ht HR. apply R_then_finish; [exact Ht|]. eapply R_trans; [exact HR|apply R_cleanup]. Qed.

Lemma disconnect_after_wait_ok c0 c : R (core_of c0) (core_of c) -> StepOK c0 (fst (disconnect_after_wait c)).
Proof.
  intro HR0. unfold disconnect_after_wait.
  set (c1 := c <| expected_disconnect := true |>).
  assert (HR1 : R (core_of c0) (core_of c1)) by (eapply R_trans; [exact HR0|apply R_mv, (MvExpected (core_of c))]).
  assert (Ht : TDisc <> TFinish) by discriminate.
  destruct (handshake_complete c1).
  - (* the DisconnectRequest is sent as a call *)
    match goal with |- context [call_begin c1 ?a ?b ?d ?e ?f ?g] =>
      pose proof (R_call_begin c1 a b d e f g) as HR; destruct (call_begin c1 a b d e f g) as [[[c2 o] ex] cid] end.
    cbn [fst] in HR. assert (HR2 : R (core_of c0) (core_of c2)) by (eapply R_trans; eassumption).
    destruct ex as [e|].
    + (* the request could not be sent: an error of the library is logged and the connection cleaned up, any other ends the task *)
      destruct e; try exact (R_then_finish c0 c2 TDisc _ Ht HR2).
      pose proof (R_then_cleanup_finish c0 c2 TDisc TOk Ht HR2) as K. destruct (cleanup c2) as [c3 o3]. exact K.
    + (* the request is sent: the task awaits the response *)
      apply R_then_set_pd. exact HR2.
  - (* before the handshake: _cleanup at once *)
    pose proof (R_then_cleanup_finish c0 c1 TDisc TOk Ht HR1) as K. destruct (cleanup c1) as [c2 o2]. exact K.
Qed.

Lemma wake_disc_ok c c' o : wake_disc c = Some (c', o) -> StepOK c c'.
Proof.
  unfold wake_disc. intro E.
  assert (Ht : TDisc <> TFinish) by discriminate.
  pose proof (core_take_cancel c TDisc) as E1. destruct (take_cancel c TDisc) as [c1 mc]. cbn [fst] in E1.
  destruct (pc (get_task c TDisc)) as [| | | | | | |cid| |]; try discriminate.
  - (* PD_Wait: the wait for finish_connection is over *)
    destruct (_ || _); [|discriminate].
    set (c2 := c1 <| disc_timer := None |>) in *.
    assert (HR2 : R (core_of c) (core_of c2)) by (apply R_eq; symmetry; exact E1).
    destruct mc; apply some_pair_fst in E; subst c'; [exact (R_then_finish c c2 TDisc _ Ht HR2)|].
    apply disconnect_after_wait_ok. destruct (finish_fut c2); try exact HR2. destruct (fatal c2); exact HR2.
  - (* PD_Resp cid: the DisconnectResponse arrived, or not *)
    destruct (get_call c cid) as [kk|]; [|discriminate].
    destruct (_ || _); [|discriminate].
    pose proof (R_call_finally c1 cid) as HR2. rewrite E1 in HR2. set (c2 := call_finally c1 cid) in *.
    pose proof (R_then_cleanup_finish c c2 TDisc TOk Ht HR2) as K. destruct (cleanup c2) as [c3 o3].
    match type of E with match ?d with _ => _ end = _ => destruct d as [|[]] end; apply some_pair_fst in E; subst c';
      first [exact K | exact (R_then_finish c c2 TDisc _ Ht HR2)].
Qed.

Lemma wake_call_ok c cid c' o : wake_call c cid = Some (c', o) -> StepOK c c'.
Proof.
  unfold wake_call. intro E.
  destruct (pc (get_task c (TCall cid))); try discriminate.
  destruct (get_call c cid) as [kk|]; [|discriminate].
  destruct (_ || _); [|discriminate].
  pose proof (core_take_cancel c (TCall cid)) as E1. destruct (take_cancel c (TCall cid)) as [c1 mc]. cbn [fst] in E1.
  pose proof (R_call_finally c1 cid) as HR. rewrite E1 in HR.
  apply some_pair_fst in E; subst c'. apply R_then_finish; [discriminate|exact HR].
Qed.
