(* For C08: on a closed connection each connect coroutine that is still suspended can be interrupted right now (the done-callback
   of its connect future, label LIntr, is enabled and leaves it resumable) or has been interrupted already; and the wait of
   disconnect() for the connect phase is over or can be released right now.
   All three follow from the invariant CK2.  A closing or dispatch move (Proofs/ConnMoves.v) stands in the relation Km, a move
   of the start / finish coroutine in KmS / KmF, and these carry CK2 over except for the clause of the coroutine that the
   label runs (CKl); that clause is re-established where wake_start / wake_finish return. *)
From Coq Require Import NArith ZArith List Bool PeanoNat.
From RecordUpdate Require Import RecordSet.
From Verif Require Import Model.Conn Proofs.ConnMoves Proofs.ConnCancel Proofs.ConnGuard.
Import ListNotations RecordSetNotations.
Open Scope Z_scope.
Open Scope list_scope.

Definition phase_running (p : tpc) : bool :=
  match p with PS_Resolve | PS_Tcp _ | PF_Create | PF_Ready | PF_Hello _ => true | _ => false end.
Definition armed_or_fired (i : istat) : Prop := i = IArmed \/ i = IFired.

(* The invariant: on a closed connection neither connect future is pending; a connect coroutine that is inside its phase has
   its future created and its interrupt block armed or fired. *)
Record CK2 (c : conn) : Prop := {
  k_cf : cs c = Closed -> start_fut c <> FPending /\ finish_fut c <> FPending;
  k_s : phase_running (pc (t_start c)) = true -> start_fut c <> FNone /\ armed_or_fired (intr_start c);
  k_f : phase_running (pc (t_finish c)) = true -> finish_fut c <> FNone /\ armed_or_fired (intr_finish c) }.

(* a connect future after set_start_future / set_finish_future *)
Definition fdone (f : fstat) : fstat := match f with FPending => FDone | x => x end.
Lemma resolved_fdone f : resolved f = fdone f.
Proof. reflexivity. Qed.
Lemma fdone_idem f : fdone (fdone f) = fdone f.
Proof. destruct f; reflexivity. Qed.

(* kst: both connect futures are kept or resolved, and a state that becomes CLOSED has both resolved *)
Definition fkeep (f f' : fstat) : Prop := f' = f \/ f' = fdone f.
Definition kst (c c' : conn) : Prop :=
  fkeep (start_fut c) (start_fut c') /\ fkeep (finish_fut c) (finish_fut c') /\
  (cs c' = Closed -> cs c = Closed \/ (start_fut c' = fdone (start_fut c) /\ finish_fut c' = fdone (finish_fut c))).
Lemma fkeep_refl f : fkeep f f.
Proof. left. reflexivity. Qed.
Lemma fkeep_trans a b c : fkeep a b -> fkeep b c -> fkeep a c.
Proof. unfold fkeep. intros [->| ->] [->| ->]; rewrite ?fdone_idem; auto. Qed.
Lemma fkeep_fdone a b : fkeep a b -> fdone b = fdone a.
Proof. intros [->| ->]; rewrite ?fdone_idem; reflexivity. Qed.
Lemma kst_refl c : kst c c.
Proof. split; [apply fkeep_refl|split; [apply fkeep_refl|auto]]. Qed.
Lemma kst_trans a b c : kst a b -> kst b c -> kst a c.
Proof.
  intros (A1 & A2 & A3) (B1 & B2 & B3). split; [eapply fkeep_trans; eassumption|]. split; [eapply fkeep_trans; eassumption|].
  intro Hc. destruct (B3 Hc) as [Hb|[X1 X2]].
  - destruct (A3 Hb) as [Ha|[Y1 Y2]]; [left; exact Ha|right].
    split; [destruct B1 as [Q|Q]; rewrite Q, Y1, ?fdone_idem; reflexivity|destruct B2 as [Q|Q]; rewrite Q, Y2, ?fdone_idem; reflexivity].
  - right. rewrite X1, X2, (fkeep_fdone _ _ A1), (fkeep_fdone _ _ A2). auto.
Qed.

(* Km: what a closing or dispatch move does *)
Record Km (c c' : conn) : Prop := {
  km_ps : pc (t_start c') = pc (t_start c);
  km_pf : pc (t_finish c') = pc (t_finish c);
  km_is : intr_start c' = intr_start c;
  km_if : intr_finish c' = intr_finish c;
  km_st : kst c c' }.
(* KmS / KmF: what a move of the start / finish coroutine keeps, namely Km without the program point and the interrupt block
   of that coroutine *)
Record KmS (c c' : conn) : Prop := { s_pf : pc (t_finish c') = pc (t_finish c); s_if : intr_finish c' = intr_finish c; s_st : kst c c' }.
Record KmF (c c' : conn) : Prop := { f_ps : pc (t_start c') = pc (t_start c); f_is : intr_start c' = intr_start c; f_st : kst c c' }.

Lemma Km_refl c : Km c c.
Proof. constructor; auto. apply kst_refl. Qed.
Lemma Km_trans a b c : Km a b -> Km b c -> Km a c.
Proof. intros [A1 A2 A3 A4 A5] [B1 B2 B3 B4 B5]. constructor; try congruence. eapply kst_trans; eassumption. Qed.
Lemma Km_KmS c c' : Km c c' -> KmS c c'.
Proof. intros [A1 A2 A3 A4 A5]. constructor; assumption. Qed.
Lemma Km_KmF c c' : Km c c' -> KmF c c'.
Proof. intros [A1 A2 A3 A4 A5]. constructor; assumption. Qed.

(* the fields Km, KmS, KmF look at *)
Definition kv (c : conn) := (cs c, start_fut c, finish_fut c, intr_start c, intr_finish c, pc (t_start c), pc (t_finish c)).
Definition kvS (c : conn) := (cs c, start_fut c, finish_fut c, intr_finish c, pc (t_finish c)).
Definition kvF (c : conn) := (cs c, start_fut c, finish_fut c, intr_start c, pc (t_start c)).
Lemma kst_eq c c' : cs c' = cs c -> start_fut c' = start_fut c -> finish_fut c' = finish_fut c -> kst c c'.
Proof. intros E1 E2 E3. split; [left; exact E2|]. split; [left; exact E3|]. intro Hc. left. congruence. Qed.
Lemma Km_kv c c' : kv c' = kv c -> Km c c'.
Proof. unfold kv. intro E. injection E as E1 E2 E3 E4 E5 E6 E7. constructor; auto. apply kst_eq; assumption. Qed.
Lemma KmS_kv c c' : kvS c' = kvS c -> KmS c c'.
Proof. unfold kvS. intro E. injection E as E1 E2 E3 E4 E5. constructor; auto. apply kst_eq; assumption. Qed.
Lemma KmF_kv c c' : kvF c' = kvF c -> KmF c c'.
Proof. unfold kvF. intro E. injection E as E1 E2 E3 E4 E5. constructor; auto. apply kst_eq; assumption. Qed.
Lemma kst_open c c' : cs c' <> Closed -> start_fut c' = start_fut c -> finish_fut c' = finish_fut c -> kst c c'.
Proof. intros H E1 E2. split; [left; exact E1|]. split; [left; exact E2|]. intro Q. contradiction. Qed.
Lemma kst_set_state c s : s <> Closed -> kst c (set_state c s).
Proof. intro H. apply kst_open; [exact H|reflexivity|reflexivity]. Qed.

Lemma fkeep_pending a b : fkeep a b -> a <> FPending -> b <> FPending.
Proof. intros [->| ->] H; [exact H|destruct a; discriminate]. Qed.
Lemma fkeep_none a b : fkeep a b -> a <> FNone -> b <> FNone.
Proof. intros [->| ->] H; [exact H|destruct a; try discriminate; contradiction]. Qed.
Lemma kst_closed c c' : kst c c' -> (cs c = Closed -> start_fut c <> FPending /\ finish_fut c <> FPending) ->
  cs c' = Closed -> start_fut c' <> FPending /\ finish_fut c' <> FPending.
Proof.
  intros (A1 & A2 & A3) H Hc. destruct (A3 Hc) as [Ha|[X1 X2]].
  - destruct (H Ha) as [H1 H2]. split; eapply fkeep_pending; eassumption.
  - rewrite X1, X2. split; [destruct (start_fut c)|destruct (finish_fut c)]; discriminate.
Qed.

Lemma Km_close c o c' : close_atom c o c' -> Km c c'.
Proof.
  destruct 1 as [c H|c H| | | | | | |c H| | |]; try (apply Km_kv; reflexivity).
  - (* AStartFut *)
    constructor; try reflexivity. split; [right; cbn; rewrite H; reflexivity|]. split; [apply fkeep_refl|]. intro Q. left. exact Q.
  - (* AFinishFut *)
    constructor; try reflexivity. split; [apply fkeep_refl|]. split; [right; cbn; rewrite H; reflexivity|]. intro Q. left. exact Q.
  - (* ACloseState: the state becomes CLOSED, both futures resolved *)
    constructor; try reflexivity. pose proof (resolved_fdone (start_fut c)) as S. pose proof (resolved_fdone (finish_fut c)) as F.
    split; [right; exact S|]. split; [right; exact F|]. intros _. right. exact (conj S F).
Qed.

Lemma kv_add c ty h : kv (add_handler c ty h) = kv c.
Proof. unfold add_handler. destruct (existsb _ _); reflexivity. Qed.

Lemma Km_data c o c' : data_atom c o c' -> Km c c'.
Proof.
  destruct 1 as [c o c' H| | |c [ty u|ty u]| |]; try (apply Km_kv; reflexivity).
  - (* DClose *) exact (Km_close c o c' H).
  - (* DAction, a subscription *) apply Km_kv, kv_add.
Qed.


Definition held_start (c : conn) : Prop := start_fut c <> FNone /\ armed_or_fired (intr_start c).
Definition held_finish (c : conn) : Prop := finish_fut c <> FNone /\ armed_or_fired (intr_finish c).

Lemma held_start_KmF c c' : KmF c c' -> held_start c -> held_start c'.
Proof. intros [_ A (B & _)] [H1 H2]. split; [exact (fkeep_none _ _ B H1)|rewrite A; exact H2]. Qed.
Lemma held_finish_KmS c c' : KmS c c' -> held_finish c -> held_finish c'.
Proof. intros [_ A (_ & B & _)] [H1 H2]. split; [exact (fkeep_none _ _ B H1)|rewrite A; exact H2]. Qed.
Lemma held_start_kv c c' : kv c' = kv c -> held_start c -> held_start c'.
Proof. intro E. apply held_start_KmF, Km_KmF, Km_kv, E. Qed.
Lemma held_finish_kv c c' : kv c' = kv c -> held_finish c -> held_finish c'.
Proof. intro E. apply held_finish_KmS, Km_KmS, Km_kv, E. Qed.

(* CK2 between the moves of label l: the clause of the connect coroutine that l runs is not claimed.  That coroutine leaves
   its interrupt block (SSocketAssigned, SStartExit, SFinishExit, SFinishExited) some moves before its task ends. *)
Record CKl (l : label) (c : conn) : Prop := {
  l_cf : cs c = Closed -> start_fut c <> FPending /\ finish_fut c <> FPending;
  l_s : ~ runs l TStart -> phase_running (pc (t_start c)) = true -> held_start c;
  l_f : ~ runs l TFinish -> phase_running (pc (t_finish c)) = true -> held_finish c }.

Lemma CK2_CKl l c : CK2 c -> CKl l c.
Proof. intros [A B C]. constructor; auto. Qed.

Lemma CKl_KmS l c c' : KmS c c' -> runs l TStart -> CKl l c -> CKl l c'.
Proof.
  intros K Hr [A B C]. constructor; [exact (kst_closed c c' (s_st _ _ K) A)|intro Hn; contradiction|].
  rewrite (s_pf _ _ K). intros Hn Hp. exact (held_finish_KmS c c' K (C Hn Hp)).
Qed.
Lemma CKl_KmF l c c' : KmF c c' -> runs l TFinish -> CKl l c -> CKl l c'.
Proof.
  intros K Hr [A B C]. constructor; [exact (kst_closed c c' (f_st _ _ K) A)| |intro Hn; contradiction].
  rewrite (f_ps _ _ K). intros Hn Hp. exact (held_start_KmF c c' K (B Hn Hp)).
Qed.
Lemma CKl_Km l c c' : Km c c' -> CKl l c -> CKl l c'.
Proof.
  intros K [A B C]. constructor; [exact (kst_closed c c' (km_st _ _ K) A)| |].
  - rewrite (km_ps _ _ K). intros Hn Hp. exact (held_start_KmF c c' (Km_KmF _ _ K) (B Hn Hp)).
  - rewrite (km_pf _ _ K). intros Hn Hp. exact (held_finish_KmS c c' (Km_KmS _ _ K) (C Hn Hp)).
Qed.
Lemma CKl_kv l c c' : kv c' = kv c -> CKl l c -> CKl l c'.
Proof. intro E. apply CKl_Km, Km_kv, E. Qed.

Lemma kv_fold_add l h : forall c, kv (fold_left (fun a ty => add_handler a ty h) l c) = kv c.
Proof. apply (fold_left_view kv). intros a ty. apply kv_add. Qed.
Lemma kv_fold_remove l h : forall c, kv (fold_left (fun a ty => remove_handler a ty h) l c) = kv c.
Proof. apply (fold_left_view kv). reflexivity. Qed.
Lemma kv_register_call c owner types ap st tmo : kv (register_call c owner types ap st tmo) = kv c.
Proof. unfold register_call. rewrite kv_fold_add. reflexivity. Qed.
Lemma kv_call_finally c cid : kv (call_finally c cid) = kv c.
Proof.
  unfold call_finally. destruct (get_call c cid); [|reflexivity].
  match goal with |- kv (?x <| waiters := _ |>) = _ => change (kv x = kv c) end. rewrite kv_fold_remove. reflexivity.
Qed.
Lemma kv_internal_handlers c : kv (internal_handlers c) = kv c.
Proof. unfold internal_handlers. rewrite !kv_add. reflexivity. Qed.
Lemma kv_set_task_same c t k' : pc k' = pc (get_task c t) -> kv (set_task c t k') = kv c.
Proof. intro H. destruct t; cbn [set_task get_task] in *; unfold kv; cbn; rewrite ?H; reflexivity. Qed.

(* The moves of the start / finish coroutine itself carry `runs l TStart` / `runs l TFinish`, so CKl l claims nothing of that
   coroutine, and they keep what CKl says of the other one (KmS / KmF). *)
Lemma CKl_step l c o c' : step_atom l c o c' -> CKl l c -> CKl l c'.
Proof.
  destruct 1; try (apply CKl_kv; reflexivity);
    lazymatch goal with
    | H : close_atom _ _ _ |- _ => exact (CKl_Km l _ _ (Km_close _ _ _ H))
    | H : data_atom _ _ _ |- _ => exact (CKl_Km l _ _ (Km_data _ _ _ H))
    | |- _ -> CKl _ (register_call _ _ _ _ _ _) => apply CKl_kv, kv_register_call
    | |- _ -> CKl _ (call_finally _ _) => apply CKl_kv, kv_call_finally
    | |- _ -> CKl _ (add_handler _ _ _) => apply CKl_kv, kv_add
    | M : tmove _ _ |- _ => (* the plumbing of a task keeps its program point *) apply CKl_kv, kv_set_task_same, tmove_pc, M
    | |- _ -> CKl _ (set_task _ _ (_ <| must_cancel := _ |>)) => (* STaskCancel *) apply CKl_kv, kv_set_task_same; reflexivity
    | |- _ -> CKl _ (set_task _ _ (_ <| user_cancelled := true |>)) => apply CKl_kv, kv_set_task_same; reflexivity
    | _ => idtac
    end.
  - (* STaskDone: the program point of the task that ends is its own *)
    destruct t; [apply (CKl_KmS l c); [apply KmS_kv|assumption]|apply (CKl_KmF l c); [apply KmF_kv|assumption]|apply CKl_kv|apply CKl_kv];
      reflexivity.
  - (* SIntrStart, the done-callback of the start future: the block goes from armed to fired *)
    intros [A B C]. constructor; [exact A| |exact C]. intros _ _. split; [cbn; congruence|right; reflexivity].
  - (* SIntrFinish *)
    intros [A B C]. constructor; [exact A|exact B|]. intros _ _. split; [cbn; congruence|right; reflexivity].
  - (* SStart: future created, block armed; the connection is not closed *)
    intros [A B C]. constructor; [cbn; intro Q; congruence| |exact C]. intros _ _. split; [discriminate|left; reflexivity].
  - (* SStartTcp *) apply (CKl_KmS l c); [apply KmS_kv; reflexivity|assumption].
  - (* SSocketAssigned *) apply (CKl_KmS l c); [apply KmS_kv; reflexivity|assumption].
  - (* SSockOpen: SOCKET_OPENED is an open state *)
    apply (CKl_KmS l c); [|assumption]. constructor; try reflexivity. apply kst_open; (discriminate || reflexivity).
  - (* SStartExit *) apply (CKl_KmS l c); [apply KmS_kv; reflexivity|assumption].
  - (* SFinish: as SStart *)
    intros [A B C]. constructor; [cbn; intro Q; congruence|exact B|]. intros _ _. split; [discriminate|left; reflexivity].
  - (* SPcReady *) apply (CKl_KmF l c); [apply KmF_kv; reflexivity|assumption].
  - (* SHsDone: HANDSHAKE_COMPLETE is an open state; the handlers registered do not matter *)
    intro K. apply (CKl_kv l _ _ (kv_internal_handlers _)). revert K.
    apply (CKl_KmF l c); [|assumption]. constructor; try reflexivity. apply kst_open; (discriminate || reflexivity).
  - (* SFinishExit *) apply (CKl_KmF l c); [apply KmF_kv; reflexivity|assumption].
  - (* SFinishExited *) apply (CKl_KmF l c); [apply KmF_kv; reflexivity|assumption].
  - (* SConnected: CONNECTED is an open state *)
    apply (CKl_KmF l c); [|assumption]. constructor; try reflexivity. apply kst_open; (discriminate || reflexivity).
Qed.

(* The clause of the coroutine that the label runs does not survive the moves of its own label: it leaves the interrupt block,
   then cleans up, resolves its future and only then ends.  What wake_start / wake_finish return is either over, or still
   inside the block it was in. *)
Definition ok_start (c : conn) : Prop := phase_running (pc (t_start c)) = true -> held_start c.
Definition ok_finish (c : conn) : Prop := phase_running (pc (t_finish c)) = true -> held_finish c.

Lemma kv_take_cancel c t : kv (fst (take_cancel c t)) = kv c.
Proof. unfold take_cancel. destruct (must_cancel _); cbn [fst]; [apply kv_set_task_same|]; reflexivity. Qed.
Lemma kv_timeout_exit c t e : kv (fst (timeout_exit c t e)) = kv c.
Proof.
  unfold timeout_exit. destruct (expiring _); [|reflexivity].
  destruct e; cbn [fst]; try (apply kv_set_task_same; reflexivity). destruct (Nat.eqb _ _); cbn [fst]; apply kv_set_task_same; reflexivity.
Qed.

Lemma start_fail_over c e : ok_start (fst (start_fail c e)).
Proof. unfold start_fail. destruct (interrupt_exit c TStart e) as [c0 e1]. destruct (cleanup _) as [c2 o]. intro Q. discriminate Q. Qed.
Lemma start_success_over c : ok_start (fst (start_success c)).
Proof. unfold start_success. destruct (cs _); try destruct (cleanup _); intro Q; discriminate Q. Qed.

Lemma wake_start_end c c' o : wake_start c = Some (c', o) -> ok_start c -> ok_start c'.
Proof.
  unfold wake_start. cbn [get_task]. intros E HK.
  assert (fin : forall r, ok_start (fst r) -> Some r = Some (c', o) -> ok_start c') by (intros r Hr Q; apply some_inj in Q; subst r; exact Hr).
  unfold ok_start in HK.
  destruct (pc (t_start c)) as [| |g| | | | | | |]; try discriminate; specialize (HK eq_refl).
  all: destruct (_ || _); [|discriminate];
    pose proof (kv_take_cancel c TStart) as K1; destruct (take_cancel c TStart) as [c1 mc]; cbn [fst] in K1;
    apply (held_start_kv _ _ K1) in HK;
    match type of E with (match ?d with _ => _ end) = _ => destruct d as [|e] end.
  - (* resolved: the first TCP attempt, still inside the block *) refine (fin _ _ E). intros _. exact HK.
  - (* resolving failed *) destruct (timeout_exit _ TStart e) as [c2 e1]. refine (fin _ _ E). apply start_fail_over.
  - (* the TCP attempt succeeded *) refine (fin _ _ E). apply start_success_over.
  - (* the TCP attempt failed: the next group of addresses is tried inside the block, or the phase fails *)
    match type of E with context [timeout_exit ?x TStart e] => pose proof (kv_timeout_exit x TStart e) as K2; destruct (timeout_exit x TStart e) as [c2 e1] end.
    cbn [fst] in K2. apply (held_start_kv _ _ K2) in HK.
    destruct (is_oserror e1); [destruct g as [|[|g']]|]; refine (fin _ _ E); first [apply start_fail_over|intros _; exact HK].
Qed.

Lemma finish_fail_over c e : ok_finish (fst (finish_fail c e)).
Proof. unfold finish_fail. destruct (interrupt_exit c TFinish e) as [c0 e1]. destruct (cleanup _) as [c2 o]. intro Q. discriminate Q. Qed.
Lemma finish_success_over c : ok_finish (fst (finish_success c)).
Proof. unfold finish_success. destruct (cs _); try destruct (cleanup _); intro Q; discriminate Q. Qed.

(* the hello / login call is registered inside the interrupt block *)
Lemma finish_after_ready_end c : held_finish c -> ok_finish (fst (finish_after_ready c)).
Proof.
  intro H. unfold finish_after_ready. set (c0 := c <| hs_timer := None |>).
  destruct (cs c0); try apply finish_fail_over.
  all: match goal with |- context [call_begin ?x ?a ?b ?d ?e ?f ?g] =>
         pose proof (call_begin_none x a b d e f g) as N; destruct (call_begin x a b d e f g) as [[[c2 o] [ex|]] cid] end;
       [ pose proof (finish_fail_over c2 ex) as F; destruct (finish_fail c2 ex); exact F
       | destruct (N _ _ _ eq_refl) as [-> _]; intros _;
         apply (held_finish_kv _ _ (kv_register_call _ _ _ _ _ _)), (held_finish_kv _ _ (kv_internal_handlers _)); exact H ].
Qed.

Lemma wake_finish_end c c' o : wake_finish c = Some (c', o) -> ok_finish c -> ok_finish c'.
Proof.
  unfold wake_finish. cbn [get_task]. intros E HK.
  assert (fin : forall r, ok_finish (fst r) -> Some r = Some (c', o) -> ok_finish c') by (intros r Hr Q; apply some_inj in Q; subst r; exact Hr).
  unfold ok_finish in HK.
  destruct (pc (t_finish c)) as [| | | | |cid| | | |]; try discriminate; specialize (HK eq_refl).
  all: lazymatch type of E with
       | context [get_call _ ?x] => destruct (get_call c x) as [kk|]; [|discriminate]   (* PF_Hello: the call exists *)
       | _ => idtac
       end.
  all: destruct (_ || _); [|discriminate];
    pose proof (kv_take_cancel c TFinish) as K1; destruct (take_cancel c TFinish) as [c1 mc]; cbn [fst] in K1;
    apply (held_finish_kv _ _ K1) in HK.
  - (* PF_Create: create_connection returned *)
    match type of E with (match ?d with _ => _ end) = _ => destruct d as [|e] end.
    + match type of E with context [ready ?x] => destruct (ready x) end; refine (fin _ _ E);
        first [apply finish_fail_over|apply finish_after_ready_end; exact HK|idtac].
      (* still waiting for the helper *) intros _. exact HK.
    + match type of E with context [finish_fail ?x e] => pose proof (finish_fail_over x e) as F; destruct (finish_fail x e) as [c3 o3] end.
      refine (fin _ _ E). exact F.
  - (* PF_Ready: the helper is ready, or failed *)
    destruct mc; [|destruct (ready c1)]; refine (fin _ _ E); first [apply finish_fail_over|apply finish_after_ready_end; exact HK].
  - (* PF_Hello: hello / login answered *)
    match type of E with (match ?d with _ => _ end) = _ => destruct d as [|e] end; [destruct (check_hello_login _ _)|];
      refine (fin _ _ E); first [apply finish_fail_over|apply finish_success_over].
Qed.

Lemma runs_connect_cases l t : t = TStart \/ t = TFinish -> ~ runs l t \/ l = LWake t.
Proof.
  intro Ht. destruct l; cbn [runs]; auto.
  - (* LDisconnect runs TDisc *) left. intros ->. destruct Ht as [Q|Q]; discriminate Q.
  - (* LCallStart runs the task of a call *) left. intros [cid ->]. destruct Ht as [Q|Q]; discriminate Q.
  - (* LWake t' *) match goal with |- ~ t = ?t' \/ _ => destruct Ht as [->| ->]; destruct t'; auto; left; intro Q; discriminate Q end.
Qed.

Theorem step_CK2 c l c' o : CK2 c -> step c l = Some (c', o) -> CK2 c'.
Proof.
  intros H E.
  destruct (path_inv _ (CKl l) (CKl_step l) _ _ _ (step_path _ _ _ _ E) (CK2_CKl l c H)) as [A B C].
  constructor; [exact A| |].
  - destruct (runs_connect_cases l TStart (or_introl eq_refl)) as [Hn| ->]; [exact (B Hn)|]. exact (wake_start_end c c' o E (k_s c H)).
  - destruct (runs_connect_cases l TFinish (or_intror eq_refl)) as [Hn| ->]; [exact (C Hn)|]. exact (wake_finish_end c c' o E (k_f c H)).
Qed.

Lemma CK2_init n e ka scr : CK2 (init n e ka scr).
Proof. constructor; cbn; try discriminate. Qed.
Lemma run_CK2 ls : forall c c' os, CK2 c -> run c ls = Some (c', os) -> CK2 c'.
Proof. exact (run_invariant CK2 step_CK2 ls). Qed.

Lemma phase_running_task k : phase_running (pc k) = true -> task_running k = true.
Proof. unfold task_running. destruct (pc k); (discriminate || reflexivity). Qed.

Theorem closed_start_interruptible n e ka scr ls c os :
  run (init n e ka scr) ls = Some (c, os) -> cs c = Closed -> phase_running (pc (t_start c)) = true ->
  intr_start c = IFired \/ exists c', step c (LIntr true) = Some (c', []) /\ ready_now c' TStart.
Proof.
  intros E Hc Hp. pose proof (run_CK2 ls _ _ _ (CK2_init n e ka scr) E) as [B1 B2 _].
  destruct (B1 Hc) as [Q1 _]. destruct (B2 Hp) as [Q2 [Q3|Q3]]; [right|left; exact Q3].
  cbn [step]. destruct (start_fut c); try contradiction. rewrite Q3.
  eexists. split; [reflexivity|]. apply cancel_task_ready, phase_running_task, Hp.
Qed.

(* the statement of C08_closed_finish_interruptible (Properties/C08.v) *)
Theorem closed_finish_interruptible_ready n e ka scr ls c os :
  run (init n e ka scr) ls = Some (c, os) -> cs c = Closed -> phase_running (pc (t_finish c)) = true ->
  intr_finish c = IFired \/ exists c', step c (LIntr false) = Some (c', []) /\ ready_now c' TFinish.
Proof.
  intros E Hc Hp. pose proof (run_CK2 ls _ _ _ (CK2_init n e ka scr) E) as [B1 _ B3].
  destruct (B1 Hc) as [_ Q1]. destruct (B3 Hp) as [Q2 [Q3|Q3]]; [right|left; exact Q3].
  cbn [step]. destruct (finish_fut c); try contradiction. rewrite Q3.
  eexists. split; [reflexivity|]. apply cancel_task_ready, phase_running_task, Hp.
Qed.

Theorem closed_finish_interruptible n e ka scr ls c os :
  run (init n e ka scr) ls = Some (c, os) -> cs c = Closed -> phase_running (pc (t_finish c)) = true ->
  intr_finish c = IFired \/ exists c', step c (LIntr false) = Some (c', []).
Proof.
  intros E Hc Hp. destruct (closed_finish_interruptible_ready n e ka scr ls c os E Hc Hp) as [H|(c' & H & _)]; [left; exact H|right; exists c'; exact H].
Qed.

Theorem closed_disconnect_wait_released n e ka scr ls c os :
  run (init n e ka scr) ls = Some (c, os) -> cs c = Closed -> pc (t_disc c) = PD_Wait ->
  disc_wait_done c = true \/ step c LDiscWaitDone <> None.
Proof.
  intros E Hc Hp. pose proof (run_CK2 ls _ _ _ (CK2_init n e ka scr) E) as [B1 _ _].
  destruct (B1 Hc) as [_ Q1]. destruct (disc_wait_done c) eqn:Ed; [left; reflexivity|right].
  cbn [step]. rewrite Hp, Ed. destruct (finish_fut c); try discriminate. exfalso. apply Q1. reflexivity.
Qed.
