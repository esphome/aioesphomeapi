(* C02: what the two frame helpers write (PlainFrame.write_packets, NoiseFrame.write_frames) is read back, packet for
   packet, by the decoders of the documented formats in Model/WireSpec.v. *)
From Coq Require Import NArith Arith List Bool Lia.
From Verif Require Import Kernel.Varint Model.PlainFrame Model.NoiseFrame Model.WireSpec.
From Verif Require Import Proofs.ListFacts Proofs.VarintProofs Proofs.PlainFrameProofs.
Import ListNotations.
Open Scope N_scope.

Lemma bytes_eqb_refl b : WireSpec.bytes_eqb b b = true.
Proof. induction b as [|x b IH]; cbn; [reflexivity|]. rewrite N.eqb_refl. exact IH. Qed.

Lemma spec_varint_enc v rest : spec_varint (enc v ++ rest) = Some (v, rest).
Proof. unfold spec_varint. rewrite dec_enc, bytes_eqb_refl. reflexivity. Qed.

Theorem plain_conforms pkts : forall fuel, (length pkts < fuel)%nat ->
  spec_decode_plain fuel (PlainFrame.write_packets pkts) = Some pkts.
Proof.
  induction pkts as [|[ty pl] pkts IH]; intros [|fuel] Hf; try (cbn in Hf; lia).
  - reflexivity.
  - change (PlainFrame.write_packets ((ty, pl) :: pkts)) with (enc_frame (ty, pl) ++ PlainFrame.write_packets pkts).
    unfold enc_frame. cbn [fst snd app spec_decode_plain].
    rewrite <- !app_assoc, !spec_varint_enc, payload_fits, Nnat.Nat2N.id, skipn_app_exact, firstn_app_exact.
    rewrite IH by (cbn in Hf; lia). reflexivity.
Qed.

Section NoiseWrite.
  Variable encrypt : N -> bytes -> bytes.
  Variable decrypt : N -> bytes -> option bytes.
  Hypothesis decrypt_encrypt : forall n pt, decrypt n (encrypt n pt) = Some pt.
  Hypothesis encrypt_length : forall n pt, length (encrypt n pt) = (length pt + 16)%nat.

  (* type and frame length fit their 16-bit fields; the frame is the payload, 4 bytes of inner header and the 16-byte tag *)
  Definition fits (p : N * bytes) : Prop := fst p < 65536 /\ N.of_nat (length (snd p)) + 20 < 65536.

  Lemma land255_ltb x : N.land x 255 <? 256 = true.
  Proof. apply N.ltb_lt. change 255 with (N.ones 8). rewrite N.land_ones. apply N.mod_lt. discriminate. Qed.
  Lemma hi8_ltb v : hi8 v <? 256 = true.
  Proof. apply land255_ltb. Qed.
  Lemma lo8_ltb v : lo8 v <? 256 = true.
  Proof. apply land255_ltb. Qed.

  (* the decoder's be16 is hi * 256 + lo; for the helper's own, bitwise, be16 this is NoiseProofs.be16_hi_lo *)
  Lemma be16_hi_lo v : v < 65536 -> WireSpec.be16 (hi8 v) (lo8 v) = v.
  Proof.
    intro H. unfold WireSpec.be16, hi8, lo8. change 255 with (N.ones 8).
    rewrite !N.land_ones, N.shiftr_div_pow2. change (2 ^ 8) with 256.
    rewrite (N.mod_small (v / 256) 256).
    - rewrite N.mul_comm. symmetry. apply N.div_mod. discriminate.
    - apply N.div_lt_upper_bound; [discriminate|]. exact H.
  Qed.

  Definition wire_frame (nonce : N) (p : N * bytes) : bytes :=
    let frame := encrypt nonce (inner_header (fst p) (N.of_nat (length (snd p))) ++ snd p) in
    [1; hi8 (N.of_nat (length frame)); lo8 (N.of_nat (length frame))] ++ frame.

  Lemma write_frames_cons nonce p r :
    write_frames encrypt nonce (p :: r) =
    (fst (write_frames encrypt (nonce + 1) r), wire_frame nonce p ++ snd (write_frames encrypt (nonce + 1) r)).
  Proof. destruct p as [ty data]. cbn [write_frames]. destruct (write_frames encrypt (nonce + 1) r). reflexivity. Qed.

  Lemma write_frames_nonce pkts : forall nonce,
    fst (write_frames encrypt nonce pkts) = nonce + N.of_nat (length pkts).
  Proof.
    induction pkts as [|p pkts IH]; intro nonce; [cbn; lia|].
    rewrite write_frames_cons. cbn [fst length]. rewrite IH. lia.
  Qed.

  Lemma wire_frame_conforms p nonce fuel out : fits p ->
    spec_decode_noise decrypt (S fuel) nonce (wire_frame nonce p ++ out) =
    match spec_decode_noise decrypt fuel (nonce + 1) out with
    | Some (n', rest) => Some (n', p :: rest)
    | None => None
    end.
  Proof.
    destruct p as [ty data]. intros [Hty Hlen]. unfold wire_frame. cbn [fst snd] in *.
    set (frame := encrypt nonce (inner_header ty (N.of_nat (length data)) ++ data)).
    assert (Hfl : length frame = (length data + 20)%nat).
    { unfold frame. rewrite encrypt_length, app_length. cbn [inner_header length]. lia. }
    cbn [app spec_decode_noise].
    rewrite hi8_ltb, lo8_ltb, be16_hi_lo, Nnat.Nat2N.id, ltb_length_app by lia.
    cbn [andb negb]. rewrite firstn_app_exact, skipn_app_exact.
    unfold frame. rewrite decrypt_encrypt. cbn [inner_header app].
    rewrite !hi8_ltb, !lo8_ltb, !be16_hi_lo, N.eqb_refl by lia. reflexivity.
  Qed.

  Lemma write_frames_conform pkts : forall nonce fuel rest_n rest_pk tail,
    Forall fits pkts -> (length pkts < fuel)%nat ->
    spec_decode_noise decrypt (fuel - length pkts) (nonce + N.of_nat (length pkts)) tail = Some (rest_n, rest_pk) ->
    spec_decode_noise decrypt fuel nonce (snd (write_frames encrypt nonce pkts) ++ tail)
      = Some (rest_n, pkts ++ rest_pk).
  Proof.
    induction pkts as [|p pkts IH]; intros nonce fuel rest_n rest_pk tail Hfit Hfuel Htail.
    - cbn [length] in Htail. rewrite Nat.sub_0_r, N.add_0_r in Htail. exact Htail.
    - destruct fuel as [|fuel]; [cbn in Hfuel; lia|]. inversion Hfit as [|? ? Hp Hfit']; subst.
      rewrite write_frames_cons. cbn [snd]. rewrite <- app_assoc, (wire_frame_conforms p _ _ _ Hp).
      rewrite (IH (nonce + 1) fuel rest_n rest_pk tail Hfit'); [reflexivity|cbn in Hfuel; lia|].
      cbn [length Nat.sub] in Htail. rewrite <- Htail. f_equal. lia.
  Qed.

  Fixpoint session (nonce : N) (calls : list (list (N * bytes))) : N * list bytes :=
    match calls with
    | [] => (nonce, [])
    | pkts :: r =>
      let '(n1, out) := write_frames encrypt nonce pkts in
      let '(n2, outs) := session n1 r in (n2, out :: outs)
    end.

  Lemma session_cons nonce pkts r :
    snd (session nonce (pkts :: r)) =
    snd (write_frames encrypt nonce pkts) :: snd (session (nonce + N.of_nat (length pkts)) r).
  Proof.
    cbn [session]. rewrite <- write_frames_nonce.
    destruct (write_frames encrypt nonce pkts) as [n1 out]. cbn [fst]. destruct (session n1 r). reflexivity.
  Qed.

  Theorem noise_conforms calls : forall nonce fuel,
    Forall (Forall fits) calls -> (length (concat calls) < fuel)%nat ->
    spec_decode_noise decrypt fuel nonce (concat (snd (session nonce calls)))
      = Some (nonce + N.of_nat (length (concat calls)), concat calls) /\
    length (snd (session nonce calls)) = length calls.
  Proof.
    induction calls as [|pkts calls IH]; intros nonce fuel Hfit Hfuel.
    - cbn. destruct fuel; [cbn in Hfuel; lia|]. cbn. rewrite N.add_0_r. split; reflexivity.
    - inversion Hfit as [|? ? Hp Hc]; subst. rewrite session_cons. cbn [concat length] in *.
      rewrite app_length in *.
      destruct (IH (nonce + N.of_nat (length pkts)) (fuel - length pkts)%nat Hc ltac:(lia)) as [IH1 IH2].
      split; [|rewrite IH2; reflexivity].
      rewrite (write_frames_conform pkts nonce fuel _ _ _ Hp ltac:(lia) IH1). f_equal. f_equal. lia.
  Qed.
End NoiseWrite.

(* F9 (known finding): a payload longer than 65515 bytes is written with a header that does not
   describe the frame. The witness uses a toy cipher that satisfies both section hypotheses. *)
Definition toy_encrypt (n : N) (pt : bytes) : bytes := pt ++ repeat n 16.
Definition toy_decrypt (n : N) (ct : bytes) : option bytes :=
  let l := (length ct - 16)%nat in
  if WireSpec.bytes_eqb (skipn l ct) (repeat n 16) && Nat.leb 16 (length ct) then Some (firstn l ct) else None.

Lemma toy_length n pt : length (toy_encrypt n pt) = (length pt + 16)%nat.
Proof. unfold toy_encrypt. rewrite app_length, repeat_length. reflexivity. Qed.
Lemma toy_correct n pt : toy_decrypt n (toy_encrypt n pt) = Some pt.
Proof.
  unfold toy_decrypt. rewrite toy_length. replace (length pt + 16 - 16)%nat with (length pt) by lia.
  unfold toy_encrypt. rewrite skipn_app_exact, firstn_app_exact, bytes_eqb_refl.
  replace (Nat.leb 16 (length pt + 16)) with true by (symmetry; apply Nat.leb_le; lia). reflexivity.
Qed.

Lemma oversize_header_wraps (data : bytes) (ty : N) fuel :
  N.of_nat (length data) = 65516 ->
  spec_decode_noise toy_decrypt (S fuel) 0 (snd (write_frames toy_encrypt 0 [(ty, data)])) = None.
Proof.
  intro Hl. cbn [write_frames snd app].
  set (frame := toy_encrypt 0 (inner_header ty (N.of_nat (length data)) ++ data)).
  assert (Hfl : N.of_nat (length frame) = 65536).
  { unfold frame. rewrite toy_length, app_length. cbn [inner_header length]. lia. }
  rewrite Hfl. change (hi8 65536) with 0. change (lo8 65536) with 0.
  cbn [spec_decode_noise]. change (WireSpec.be16 0 0) with 0. cbn [N.to_nat N.ltb N.compare andb firstn].
  (* the header announces length 0: the decoder cuts off an empty ciphertext, which has no room for a tag *)
  change (toy_decrypt 0 []) with (@None bytes). destruct (negb _); reflexivity.
Qed.

Theorem noise_oversize_refuted :
  exists pkts : list (N * bytes),
    spec_decode_noise toy_decrypt 2 0 (snd (write_frames toy_encrypt 0 pkts)) <> Some (1, pkts).
Proof.
  exists [(1, repeat 0 (N.to_nat 65516))].
  rewrite oversize_header_wraps; [discriminate|].
  rewrite repeat_length. apply Nnat.N2Nat.id.
Qed.
