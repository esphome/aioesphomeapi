(* For C09 (bounded time): every armed deadline lies within its documented bound of the present.
   TBp is the invariant, and every move of the model (Proofs/ConnMoves.v) keeps it: closing and dispatch touch neither the
   clock nor the three phase timers; a label's own moves stand in the relation Bm, or arm a timer at the present plus its
   time-out, or advance the clock.  The timers of calls are exact: ConnLeak.call_timers_exact. *)
From Coq Require Import NArith ZArith List Bool Lia.
From RecordUpdate Require Import RecordSet.
From Verif Require Import Generated.GenConstants Model.Conn Proofs.ConnMoves.
Import ListNotations RecordSetNotations.
Open Scope Z_scope.
Open Scope list_scope.

Definition CONNECT_BOUND : Z := Z.max RESOLVE_TIMEOUT TCP_CONNECT_TIMEOUT.
Arguments CONNECT_BOUND : simpl never.

Definition keeps (a b : option Z) : Prop := b = a \/ b = None.
Lemma keeps_refl a : keeps a a.
Proof. left. reflexivity. Qed.
Lemma keeps_trans a b c : keeps a b -> keeps b c -> keeps a c.
Proof. unfold keeps. intros [->| ->] [->| ->]; auto. Qed.

(* Bm: the clock stands and each of the three phase timers is kept or cleared *)
Record Bm (c c' : conn) : Prop := {
  b_now : now c' = now c;
  b_conn : keeps (conn_timer c) (conn_timer c');
  b_hs : keeps (hs_timer c) (hs_timer c');
  b_disc : keeps (disc_timer c) (disc_timer c') }.
Lemma Bm_refl c : Bm c c.
Proof. constructor; auto using keeps_refl. Qed.
Lemma Bm_trans a b c : Bm a b -> Bm b c -> Bm a c.
Proof. intros [A1 A2 A3 A4] [B1 B2 B3 B4]. constructor; [congruence|eapply keeps_trans; eassumption..]. Qed.

(* the fields Bm looks at *)
Definition bv (c : conn) := (now c, conn_timer c, hs_timer c, disc_timer c).
Lemma Bm_bv c c' : bv c' = bv c -> Bm c c'.
Proof. unfold bv. intro E. injection E as E1 E2 E3 E4. constructor; [exact E1|left; assumption..]. Qed.

(* TBp: the timer of start_connection, of the handshake and of disconnect()'s wait, when armed, lies within its bound of the clock *)
Definition TBp (c : conn) : Prop :=
  (forall d, conn_timer c = Some d -> d <= now c + CONNECT_BOUND) /\
  (forall d, hs_timer c = Some d -> d <= now c + HANDSHAKE_TIMEOUT) /\
  (forall d, disc_timer c = Some d -> d <= now c + DISCONNECT_CONNECT_TIMEOUT).

Definition within (t B : Z) (a : option Z) : Prop := forall d, a = Some d -> d <= t + B.
Lemma within_keeps t B a b : keeps a b -> within t B a -> within t B b.
Proof. intros [->| ->] H; [exact H|]. intros d Q. discriminate Q. Qed.
Lemma within_arm t B x : x <= B -> within t B (Some (t + x)).
Proof. intros H d Q. injection Q as <-. lia. Qed.
Lemma within_later t t' B a : t <= t' -> within t B a -> within t' B a.
Proof. intros H A d Q. specialize (A d Q). lia. Qed.

Lemma TBp_Bm c c' : Bm c c' -> TBp c -> TBp c'.
Proof.
  intros [B1 B2 B3 B4] (H1 & H2 & H3). unfold TBp. rewrite B1.
  split; [|split]; eapply within_keeps; eassumption.
Qed.
Lemma TBp_bv c c' : bv c' = bv c -> TBp c -> TBp c'.
Proof. intro E. apply TBp_Bm, Bm_bv. exact E. Qed.

Lemma bv_add c ty h : bv (add_handler c ty h) = bv c.
Proof. unfold add_handler. destruct (existsb _ _); reflexivity. Qed.
Lemma bv_action c a : bv (run_action c a) = bv c.
Proof. destruct a; [apply bv_add|reflexivity]. Qed.
Lemma bv_fold_add l h : forall c, bv (fold_left (fun a ty => add_handler a ty h) l c) = bv c.
Proof. apply (fold_left_view bv). intros a ty. apply bv_add. Qed.
Lemma bv_fold_remove l h : forall c, bv (fold_left (fun a ty => remove_handler a ty h) l c) = bv c.
Proof. apply (fold_left_view bv). reflexivity. Qed.
Lemma bv_register_call c owner types ap st tmo : bv (register_call c owner types ap st tmo) = bv c.
Proof. unfold register_call. rewrite bv_fold_add. reflexivity. Qed.
Lemma bv_call_finally c cid : bv (call_finally c cid) = bv c.
Proof.
  unfold call_finally. destruct (get_call c cid); [|reflexivity].
  match goal with |- bv (?x <| waiters := _ |>) = _ => change (bv x = bv c) end. rewrite bv_fold_remove. reflexivity.
Qed.
Lemma bv_internal_handlers c : bv (internal_handlers c) = bv c.
Proof. unfold internal_handlers. rewrite !bv_add. reflexivity. Qed.
Lemma bv_set_task c t k : bv (set_task c t k) = bv c.
Proof. destruct t; reflexivity. Qed.

Lemma bv_close c o c' : close_atom c o c' -> bv c' = bv c.
Proof. destruct 1; reflexivity. Qed.

Lemma bv_data c o c' : data_atom c o c' -> bv c' = bv c.
Proof.
  destruct 1 as [c o c' H| | |c a| |]; try reflexivity.
  - (* DClose *) exact (bv_close c o c' H).
  - (* DAction *) apply bv_action.
Qed.

Lemma TBp_step l c o c' : step_atom l c o c' -> TBp c -> TBp c'.
Proof.
  destruct 1; try (apply TBp_bv; reflexivity);
    (* a phase timer is cleared: SConnExpire, SConnTimerNone, SSocketAssigned, SStartExit, SHsTimerNone, SFinishExit,
       SDiscTimerNone, SDiscWaitDone, SDiscWaitTimeout *)
    try (apply TBp_Bm; constructor; first [reflexivity | left; reflexivity | right; reflexivity]);
    lazymatch goal with
    | H : close_atom _ _ _ |- _ => apply TBp_bv, (bv_close _ _ _ H)
    | H : data_atom _ _ _ |- _ => apply TBp_bv, (bv_data _ _ _ H)
    | |- _ -> TBp (register_call _ _ _ _ _ _) => apply TBp_bv, bv_register_call
    | |- _ -> TBp (call_finally _ _) => apply TBp_bv, bv_call_finally
    | |- _ -> TBp (set_task _ _ _) => (* STask, STaskDone, SUserCancel *) apply TBp_bv, bv_set_task
    | |- _ -> TBp (internal_handlers _) => (* SHsDone *) apply TBp_bv; rewrite bv_internal_handlers; reflexivity
    | |- _ -> TBp (add_handler _ _ _) => apply TBp_bv, bv_add
    | _ => idtac
    end.
  - (* SStart: the resolve time-out *)
    intros (A1 & A2 & A3). split; [|exact (conj A2 A3)]. apply within_arm, Z.le_max_l.
  - (* SStartTcp: the TCP time-out *)
    intros (A1 & A2 & A3). split; [|exact (conj A2 A3)]. apply within_arm, Z.le_max_r.
  - (* SHelperAssigned: the handshake time-out *)
    intros (A1 & A2 & A3). split; [exact A1|]. split; [|exact A3]. apply within_arm, Z.le_refl.
  - (* SDiscWait: disconnect() waits for finish_connection *)
    intros (A1 & A2 & A3). split; [exact A1|]. split; [exact A2|]. apply within_arm, Z.le_refl.
  - (* SAdvance: the clock moves forward *)
    intros (A1 & A2 & A3). split; [|split]; eapply within_later; eassumption.
Qed.

Theorem step_TBp c l c' o : TBp c -> step c l = Some (c', o) -> TBp c'.
Proof. intros HT E. exact (path_inv _ TBp (TBp_step l) _ _ _ (step_path _ _ _ _ E) HT). Qed.

Lemma TBp_init n e ka scr : TBp (init n e ka scr).
Proof. unfold TBp. cbn. repeat split; intros d Hd; discriminate. Qed.
Lemma run_TBp ls : forall c c' os, TBp c -> run c ls = Some (c', os) -> TBp c'.
Proof. exact (run_invariant TBp step_TBp ls). Qed.

Theorem phase_deadlines_bounded n e ka scr ls c os :
  run (init n e ka scr) ls = Some (c, os) ->
  (forall d, conn_timer c = Some d -> d <= now c + Z.max RESOLVE_TIMEOUT TCP_CONNECT_TIMEOUT) /\
  (forall d, hs_timer c = Some d -> d <= now c + HANDSHAKE_TIMEOUT) /\
  (forall d, disc_timer c = Some d -> d <= now c + DISCONNECT_CONNECT_TIMEOUT).
Proof. intro E. exact (run_TBp ls _ _ _ (TBp_init n e ka scr) E). Qed.
