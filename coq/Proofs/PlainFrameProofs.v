(* C01: the plaintext frame helper (Model/PlainFrame.v) on an honest stream - frames, then a strict prefix of a further
   frame - cut into reads anywhere: every frame is delivered once and in order, and the incomplete tail is retained. *)
From Coq Require Import NArith List Lia Bool.
From Verif Require Import Kernel.Varint Model.PlainFrame Proofs.ListFacts Proofs.VarintProofs.
Import ListNotations.
Open Scope N_scope.

Definition frame := (N * bytes)%type.
(* what PlainFrame.write_packets writes for fs *)
Definition enc_stream (fs : list frame) : bytes := flat_map enc_frame fs.
Definition deliver (f : frame) : pevent := Deliver (fst f) (snd f).

(* p is a strict prefix of the encoding of some frame: how an honest stream may end, and what a read on one leaves in the
   buffer *)
Definition SP (p : bytes) : Prop := exists f q, q <> [] /\ enc_frame f = p ++ q.

Lemma enc_frame_nonempty f : enc_frame f <> [].
Proof. unfold enc_frame. discriminate. Qed.

Lemma SP_nil : SP [].
Proof. exists (0, []), (enc_frame (0, [])). split; [apply enc_frame_nonempty|reflexivity]. Qed.

Lemma enc_stream_cons f fs : enc_stream (f :: fs) = enc_frame f ++ enc_stream fs.
Proof. reflexivity. Qed.

Lemma enc_stream_app a b : enc_stream (a ++ b) = enc_stream a ++ enc_stream b.
Proof. unfold enc_stream. apply flat_map_app. Qed.

Lemma read_varuint_0 r : read_varuint (0 :: r) = Some (0, r).
Proof. reflexivity. Qed.

Lemma payload_fits (pl rest : bytes) : N.of_nat (length (pl ++ rest)) <? N.of_nat (length pl) = false.
Proof. apply N.ltb_ge. rewrite app_length. lia. Qed.

Lemma parse_one_frame f rest :
  parse_one (enc_frame f ++ rest) = OFrame (fst f) (snd f) rest.
Proof.
  destruct f as [ty pl]. unfold parse_one, enc_frame. cbn [fst snd app].
  rewrite read_varuint_0, <- !app_assoc, !dec_enc. cbn [N.eqb].
  destruct (N.eqb_spec (N.of_nat (length pl)) 0) as [E|E].
  - destruct pl; [reflexivity|cbn in E; lia].
  - rewrite payload_fits, Nnat.Nat2N.id, firstn_app_exact, skipn_app_exact. reflexivity.
Qed.

(* the cut falls inside the length, inside the type, or inside the payload *)
Lemma parse_one_SP p : SP p -> p <> [] -> parse_one p = OIncomplete.
Proof.
  intros ([ty pl] & q & Hq & E) Hp. unfold enc_frame in E. cbn [fst snd] in E.
  destruct p as [|b p]; [contradiction|]. injection E as <- E. symmetry in E.
  unfold parse_one. rewrite read_varuint_0. cbn [N.eqb].
  destruct (enc_cut _ _ _ _ E) as [->|(p1 & -> & E1)]; [reflexivity|]. rewrite dec_enc.
  destruct (enc_cut _ _ _ _ E1) as [->|(p2 & -> & <-)]; [reflexivity|]. rewrite dec_enc.
  assert (length q <> 0)%nat by (rewrite length_zero_iff_nil; exact Hq).
  rewrite app_length.
  destruct (N.eqb_spec (N.of_nat (length p2 + length q)) 0); [lia|].
  destruct (N.ltb_spec (N.of_nat (length p2)) (N.of_nat (length p2 + length q))); [reflexivity|lia].
Qed.

Lemma loop_nonempty fuel buf acc : buf <> [] ->
  loop (S fuel) buf acc =
  match parse_one buf with
  | OFrame ty pl rest => loop fuel rest (acc ++ [Deliver ty pl])
  | OIncomplete => {| r_events := acc; r_buffer := buf; r_status := Ok |}
  | OError e => {| r_events := acc ++ [e]; r_buffer := buf; r_status := Errored |}
  end.
Proof. destruct buf; [contradiction|reflexivity]. Qed.

Lemma loop_frame fuel f rest acc :
  loop (S fuel) (enc_frame f ++ rest) acc = loop fuel rest (acc ++ [deliver f]).
Proof. cbn [loop]. rewrite parse_one_frame. reflexivity. Qed.

Lemma loop_honest fs : forall fuel partial acc,
  SP partial -> (length (enc_stream fs ++ partial) < fuel)%nat ->
  loop fuel (enc_stream fs ++ partial) acc =
  {| r_events := acc ++ map deliver fs; r_buffer := partial; r_status := Ok |}.
Proof.
  induction fs as [|f fs IH]; intros [|fuel] partial acc Hsp Hfuel; try (cbn in Hfuel; lia).
  - cbn [enc_stream flat_map app map]. rewrite app_nil_r.
    destruct partial as [|b partial]; [reflexivity|].
    rewrite loop_nonempty, (parse_one_SP _ Hsp) by discriminate. reflexivity.
  - rewrite enc_stream_cons, <- app_assoc in *. rewrite loop_frame.
    rewrite IH; [|exact Hsp|].
    + cbn [map]. rewrite <- app_assoc. reflexivity.
    + assert (length (enc_frame f) <> 0)%nat by (rewrite length_zero_iff_nil; apply enc_frame_nonempty).
      rewrite app_length in Hfuel. lia.
Qed.

(* p1 stops inside the first item of enc_stream fs2 ++ partial: it is a strict prefix of the first frame of fs2 or, when no
   frame is left, a prefix of partial. In run_honest p1 is the buffer a read has retained and fs2 the frames not yet delivered. *)
Definition aligned (p1 : bytes) (fs2 : list frame) (partial : bytes) : Prop :=
  match fs2 with
  | [] => exists q, partial = p1 ++ q
  | f :: _ => exists q, q <> [] /\ enc_frame f = p1 ++ q
  end.

Lemma aligned_SP p1 fs2 partial : SP partial -> aligned p1 fs2 partial -> SP p1.
Proof.
  intros (g & q & Hq & E) Ha. destruct fs2 as [|f fs2]; cbn in Ha.
  - destruct Ha as [q' ->]. exists g, (q' ++ q). split.
    + destruct q'; [assumption|discriminate].
    + rewrite E, app_assoc. reflexivity.
  - destruct Ha as (q' & Hq' & E'). exists f, q'. split; assumption.
Qed.

Lemma decompose fs : forall partial x y,
  x ++ y = enc_stream fs ++ partial ->
  exists fs1 fs2 p1,
    fs = fs1 ++ fs2 /\ x = enc_stream fs1 ++ p1 /\ p1 ++ y = enc_stream fs2 ++ partial /\
    aligned p1 fs2 partial.
Proof.
  induction fs as [|f fs IH]; intros partial x y E.
  - exists [], [], x. repeat split; [exact E|]. exists y. symmetry. exact E.
  - rewrite enc_stream_cons, <- app_assoc in E.
    apply app_eq_app_cases in E. destruct E as [(r & Hr & E1 & E2)|(r & -> & E2)].
    + exists [], (f :: fs), x. rewrite enc_stream_cons. repeat split.
      * rewrite E2, E1, <- !app_assoc. reflexivity.
      * exists r. split; assumption.
    + symmetry in E2. destruct (IH _ _ _ E2) as (fs1 & fs2 & p1 & -> & -> & E3 & Ha).
      exists (f :: fs1), fs2, p1. rewrite enc_stream_cons, <- app_assoc. repeat split; assumption.
Qed.

(* a strict prefix of the first frame is not the whole stream *)
Lemma aligned_end b fs partial : aligned b fs partial -> b = enc_stream fs ++ partial -> fs = [].
Proof.
  destruct fs as [|f fs]; [reflexivity|]. cbn [aligned]. intros (q & Hq & E) Eb. exfalso.
  assert (length q <> 0)%nat by (rewrite length_zero_iff_nil; exact Hq).
  rewrite enc_stream_cons, <- app_assoc in Eb. apply (f_equal (@length _)) in E, Eb.
  rewrite app_length in E, Eb. lia.
Qed.

Theorem run_honest cs : forall b fs partial,
  SP partial -> aligned b fs partial ->
  b ++ concat cs = enc_stream fs ++ partial ->
  exists evs, run b cs = (evs, partial, Ok) /\ concat evs = map deliver fs.
Proof.
  induction cs as [|c cs IH]; intros b fs partial Hsp Ha E.
  - cbn [concat] in E. rewrite app_nil_r in E.
    assert (fs = []) by (eapply aligned_end; eassumption). subst fs.
    cbn in E. subst b. exists []. split; reflexivity.
  - cbn [concat] in E. rewrite app_assoc in E.
    destruct (decompose _ _ _ _ E) as (fs1 & fs2 & p1 & -> & Ex & Ey & Ha1).
    cbn [run]. unfold data_received. rewrite Ex.
    rewrite loop_honest; [|eapply aligned_SP; eassumption|lia].
    cbn [r_status r_buffer r_events app].
    destruct (IH p1 fs2 partial Hsp Ha1 Ey) as (evs & -> & Hevs).
    exists (map deliver fs1 :: evs). split; [reflexivity|].
    cbn [concat]. rewrite Hevs, map_app. reflexivity.
Qed.

(* C01: lossless, in order, exactly once, tail retained *)
Theorem reassembly (fs : list frame) (partial : bytes) (chunks : list bytes) :
  SP partial ->
  concat chunks = enc_stream fs ++ partial ->
  exists evs, run [] chunks = (evs, partial, Ok) /\ concat evs = map deliver fs.
Proof.
  intros Hsp E. apply run_honest; [assumption| |assumption].
  destruct fs as [|f fs]; cbn [aligned].
  - exists partial. reflexivity.
  - exists (enc_frame f). split; [apply enc_frame_nonempty|reflexivity].
Qed.
