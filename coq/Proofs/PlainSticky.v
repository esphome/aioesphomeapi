(* A plaintext helper that has reported a wrong first byte never delivers again, whatever arrives in later reads
   (C04: "nothing following the deviation is ever delivered" for the device that speaks the other framing). *)
From Coq Require Import NArith List Bool Lia.
From Verif Require Import Kernel.Varint Model.PlainFrame Proofs.VarintProofs Proofs.PlainFrameProofs.
Import ListNotations.
Open Scope N_scope.

(* the buffer starts with a complete first byte (varint) that is not the plaintext preamble *)
Definition bad_start (buf : bytes) : Prop := exists pre r, read_varuint buf = Some (pre, r) /\ pre <> 0.

Lemma bad_start_app buf c : bad_start buf -> bad_start (buf ++ c).
Proof. intros (pre & r & E & Hpre). exists pre, (r ++ c). split; [apply read_varuint_app; exact E|exact Hpre]. Qed.

Lemma bad_start_nonempty buf : bad_start buf -> buf <> [].
Proof. intros (pre & r & E & _) ->. discriminate E. Qed.

Lemma parse_one_bad buf : bad_start buf -> exists e, parse_one buf = OError e /\ (forall t p, e <> Deliver t p).
Proof.
  intros (pre & r & E & Hpre). unfold parse_one. rewrite E.
  destruct (N.eqb_spec pre 0) as [Z|_]; [contradiction|].
  eexists. split; [reflexivity|]. intros t p. destruct (pre =? 1); discriminate.
Qed.

Lemma data_received_bad buf c : bad_start buf ->
  exists e, data_received buf c = {| r_events := [e]; r_buffer := buf ++ c; r_status := Errored |} /\ (forall t p, e <> Deliver t p).
Proof.
  intro B. pose proof (bad_start_app buf c B) as B2.
  destruct (parse_one_bad _ B2) as (e & P & ND).
  exists e. split; [|exact ND].
  unfold data_received. rewrite loop_nonempty, P by exact (bad_start_nonempty _ B2). reflexivity.
Qed.

(* parse_one reports an error for the preamble only *)
Lemma parse_one_error_bad buf e : parse_one buf = OError e ->
  (exists pre rest, read_varuint buf = Some (pre, rest)) -> bad_start buf.
Proof.
  intros P (pre & rest & E). exists pre, rest. split; [exact E|]. intros ->.
  unfold parse_one in P. rewrite E in P. cbn [N.eqb] in P.
  destruct (read_varuint rest) as [[len r2]|]; [|discriminate].
  destruct (read_varuint r2) as [[ty r3]|]; [|discriminate].
  destruct (len =? 0); [discriminate|]. destruct (N.of_nat (length r3) <? len); discriminate.
Qed.

Lemma loop_errored_bad : forall fuel buf acc r,
  loop fuel buf acc = r -> r_status r = Errored ->
  (exists pre rest, read_varuint (r_buffer r) = Some (pre, rest)) -> bad_start (r_buffer r).
Proof.
  induction fuel as [|f IH]; intros buf acc r H Herr E; cbn [loop] in H.
  - subst r. discriminate.
  - destruct buf as [|x xs]; [subst r; discriminate|].
    destruct (parse_one (x :: xs)) as [ty pl rest'| |e] eqn:P.
    + (* a frame: the loop goes on *) eapply IH; eassumption.
    + (* incomplete: the read ends Ok *) subst r. discriminate.
    + (* the error: the buffer is kept as it is *) subst r. exact (parse_one_error_bad _ _ P E).
Qed.

Definition delivers (evs : list pevent) : list (N * bytes) :=
  flat_map (fun e => match e with Deliver t p => [(t, p)] | _ => [] end) evs.

Fixpoint silent_from (b : bytes) (cs : list bytes) : Prop :=
  match cs with
  | [] => True
  | c1 :: r => r_status (data_received b c1) = Errored /\ delivers (r_events (data_received b c1)) = [] /\
               silent_from (r_buffer (data_received b c1)) r
  end.

Lemma bad_start_silent : forall later b, bad_start b -> silent_from b later.
Proof.
  induction later as [|c1 r IH]; intros b0 B; [exact I|].
  destruct (data_received_bad b0 c1 B) as (e & D & ND). cbn [silent_from]. rewrite D. cbn.
  split; [reflexivity|]. split.
  - destruct e as [t p| |v]; [destruct (ND t p eq_refl)|reflexivity|reflexivity].
  - apply IH. apply bad_start_app. exact B.
Qed.

Theorem plain_error_is_final : forall buf c later,
  r_status (data_received buf c) = Errored ->
  (exists pre rest, read_varuint (r_buffer (data_received buf c)) = Some (pre, rest)) ->
  silent_from (r_buffer (data_received buf c)) later.
Proof.
  intros buf c later Herr E. apply bad_start_silent.
  unfold data_received in *. eapply loop_errored_bad; [reflexivity|exact Herr|exact E].
Qed.
