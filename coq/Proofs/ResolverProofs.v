(* Model/Resolver.v: a successful resolve returns what its hosts contribute one by one, in the configured order (resolve_ok);
   the ZeroconfManager closes an engine only if it created it (zinv is its invariant). Properties/C20.v rests on both. *)
From Coq Require Import NArith String Ascii List Bool.
From Verif Require Import Model.Resolver.
Import ListNotations.
Open Scope string_scope.
Open Scope list_scope.

Definition contribution (h : host) : option (list addr) := fst (fst (resolve_one h)).
Definition calls_of (h : host) : list call := snd (resolve_one h).

Fixpoint all_contributions (hs : list host) : option (list addr) :=
  match hs with
  | [] => Some []
  | h :: r => match contribution h, all_contributions r with Some a, Some b => Some (a ++ b) | _, _ => None end
  end.

Lemma resolve_loop_spec hs : forall acc z calls,
  match all_contributions hs with
  | Some l =>
    snd (resolve_loop hs acc z calls) = calls ++ flat_map calls_of hs /\
    (acc ++ l <> [] -> fst (resolve_loop hs acc z calls) = inl (acc ++ l)) /\
    (acc ++ l = [] -> exists e, fst (resolve_loop hs acc z calls) = inr e /\ e <> ErrOs)
  | None => fst (resolve_loop hs acc z calls) = inr ErrOs
  end.
Proof.
  induction hs as [|h r IH]; intros acc z calls; cbn [all_contributions resolve_loop flat_map].
  - rewrite !app_nil_r. split; [reflexivity|]. split.
    + intro Hn. destruct acc; [contradiction|reflexivity].
    + intros ->. destruct z; eexists; (split; [reflexivity|discriminate]).
  - unfold contribution, calls_of. destruct (resolve_one h) as [[res zz] c]. cbn [fst snd].
    destruct res as [l|]; [|reflexivity].
    specialize (IH (acc ++ l) (z || zz) (calls ++ c)). destruct (all_contributions r) as [l2|]; [|exact IH].
    destruct IH as (A & B & C). rewrite <- !app_assoc in *. repeat split; auto.
Qed.

Lemma resolve_ok hs l : fst (resolve hs) = inl l -> all_contributions hs = Some l /\ l <> [] /\ snd (resolve hs) = flat_map calls_of hs.
Proof.
  unfold resolve. intro H. pose proof (resolve_loop_spec hs [] false []) as Spec.
  destruct (all_contributions hs) as [[|a l2]|]; cbn [app] in Spec.
  - (* no host contributes anything: an error *)
    destruct Spec as (_ & _ & C). destruct (C eq_refl) as (e & E & _). rewrite E in H. discriminate.
  - (* the contributions a :: l2 are the result *)
    destruct Spec as (A & B & _). rewrite B in H by discriminate. injection H as <-. repeat split; [discriminate|exact A].
  - (* an OS lookup failed: an error *)
    rewrite Spec in H. discriminate.
Qed.

Definition zinv (s : zcm) : Prop := (z_created s = true <-> z_inst s = Some Lib).
Definition never_closes_app (o : list zobs) : Prop := ~ In (ZClosed App) o.

Lemma z_close_eq s : zinv s -> z_close s = match z_inst s with Some Lib => (mkZcm false None, [ZClosed Lib]) | _ => (s, []) end.
Proof.
  intros [H1 H2]. unfold z_close. destruct (z_inst s) as [[|]|], (z_created s); try reflexivity.
  - (* the application's, marked as created *) discriminate (H1 eq_refl).
  - (* the library's, not marked as created *) discriminate (H2 eq_refl).
Qed.

Lemma service_info_eq s ok :
  zstep s (ZServiceInfo ok) = match z_inst s with Some _ => (s, []) | None => (mkZcm false None, [ZCreated; ZClosed Lib]) end.
Proof. cbn. unfold z_get. destruct (z_inst s); reflexivity. Qed.

Lemma zinv_fresh : zinv (mkZcm false None).
Proof. split; discriminate. Qed.

Lemma zstep_inv s o : zinv s -> zinv (fst (zstep s o)) /\ never_closes_app (snd (zstep s o)).
Proof.
  intro H. unfold never_closes_app. destruct o as [| |ok| | |].
  - (* ZSetInstance: the application's instance is recorded only where there was none, so none that the library created *)
    cbn [zstep]. destruct (z_inst s) as [[|]|] eqn:Ei; cbn; [tauto|intuition discriminate|].
    split; [|tauto]. split; [intro C; apply H in C; congruence|discriminate].
  - (* ZGet *)
    cbn [zstep]. unfold z_get. destruct (z_inst s); cbn; [tauto|]. split; [split; reflexivity|intuition discriminate].
  - (* ZServiceInfo *)
    rewrite service_info_eq. destruct (z_inst s); cbn; [tauto|]. split; [split; discriminate|intuition discriminate].
  - (* ZGetNoSockets *)
    cbn [zstep]. destruct (z_inst s); cbn; [tauto|intuition discriminate].
  - (* ZServiceInfoNoSockets *)
    cbn [zstep]. destruct (z_inst s); cbn; [tauto|intuition discriminate].
  - (* ZClose *)
    cbn [zstep]. rewrite (z_close_eq s H). destruct (z_inst s) as [[|]|]; cbn; try tauto. split; [split; discriminate|intuition discriminate].
Qed.

Theorem never_closes_application_instance ops : forall s, zinv s -> zinv (fst (zrun s ops)) /\ never_closes_app (snd (zrun s ops)).
Proof.
  induction ops as [|o ops IH]; intros s H; cbn [zrun].
  - cbn. split; [exact H|intros []].
  - destruct (zstep_inv s o H) as [H1 H2]. destruct (zstep s o) as [s1 e1]. cbn [fst snd] in *.
    destruct (IH s1 H1) as [H3 H4]. destruct (zrun s1 ops) as [s2 e2]. cbn [fst snd] in *.
    split; [exact H3|]. unfold never_closes_app in *. intro Q. apply in_app_or in Q. tauto.
Qed.
