(* Model/Keepalive.v: the invariant KI, which ties the two timers to the ghost history (ticks, last arrival, first unanswered
   ping), is kept by every step; from it, where an armed pong deadline stands and what a run can show. Properties/C10.v rests on it. *)
From Coq Require Import ZArith List Bool Lia.
From Verif Require Import Generated.GenConstants Model.Keepalive.
Import ListNotations.
Open Scope Z_scope.

Lemma pong_timeout_eq h : pong_timeout h = 9 * h.
Proof.
  unfold pong_timeout, interval, KEEP_ALIVE_RATIO_NUM, KEEP_ALIVE_RATIO_DEN.
  replace (2 * h * 9) with (9 * h * 2) by lia. apply Z.div_mul. lia.
Qed.

Lemma ka_step_inv h s e s' o : ka_step h s e = Some (s', o) ->
  k_dead s = false /\
  match e with
  | KArr => s' = mkKa (k_now s) false (k_ping_at s) None false (g_ticks s) true (k_now s) None /\ o = []
  | KTick =>
    k_now s = k_ping_at s /\
    s' = mkKa (k_now s) true (k_now s + 2 * h)
           (if k_pending s then match k_pong s with None => Some (k_now s + 9 * h) | Some d => Some d end else k_pong s) false
           (g_ticks s + 1) false (g_last_arr s)
           (if k_pending s then match g_first_ping s with None => Some (k_now s) | Some p => Some p end else g_first_ping s) /\
    o = (if k_pending s then [KPingSent (k_now s)] else [])
  | KPong =>
    k_pong s = Some (k_now s) /\
    s' = mkKa (k_now s) (k_pending s) (k_ping_at s) None true (g_ticks s) (g_arr_since_tick s) (g_last_arr s) (g_first_ping s) /\
    o = [KDead (k_now s)]
  | KAdv t =>
    k_now s <= t <= k_ping_at s /\ match k_pong s with Some d => t <= d | None => True end /\
    s' = mkKa t (k_pending s) (k_ping_at s) (k_pong s) false (g_ticks s) (g_arr_since_tick s) (g_last_arr s) (g_first_ping s) /\ o = []
  end.
Proof.
  unfold ka_step. destruct (k_dead s); [discriminate|]. intro E. split; [reflexivity|]. destruct e.
  - (* KArr *) injection E as <- <-. auto.
  - (* KTick *) destruct (Z.eqb_spec (k_now s) (k_ping_at s)); [|discriminate]. injection E as <- <-. rewrite pong_timeout_eq. auto.
  - (* KPong *) destruct (k_pong s) as [d|]; [|discriminate]. destruct (Z.eqb_spec (k_now s) d) as [Q|]; [|discriminate]. injection E as <- <-. rewrite Q. auto.
  - (* KAdv *) destruct (Z.leb_spec (k_now s) t); [|discriminate]. destruct (Z.leb_spec t (k_ping_at s)); [|discriminate].
    destruct (k_pong s) as [d|]; [destruct (Z.leb_spec t d); [|discriminate]|]; injection E as <- <-; auto.
Qed.

Record KI (h : Z) (s : ka) : Prop := {
  i_ping_at : k_ping_at s = 2 * h * (g_ticks s + 1);
  i_now : 2 * h * g_ticks s <= k_now s <= k_ping_at s;
  i_ticks : 0 <= g_ticks s;
  i_pending : k_pending s = negb (g_arr_since_tick s);
  i_pong : k_dead s = false -> k_pong s = option_map (fun p => p + 9 * h) (g_first_ping s);
  i_deadline : match k_pong s with Some d => k_now s <= d | None => True end;
  i_last : g_last_arr s <= k_now s;
  (* the flag says on which side of the last tick the last arrival lies *)
  i_since : if g_arr_since_tick s then 2 * h * g_ticks s <= g_last_arr s else g_last_arr s <= 2 * h * g_ticks s;
  (* a recorded first ping was written at a tick, between K and 2K after the last arrival; while none is recorded the last
     arrival is at most K before the last tick, so that a ping written at the next tick is such a first ping *)
  i_first : match g_first_ping s with
            | Some p => (exists j, 1 <= j <= g_ticks s /\ p = 2 * h * j) /\ p - 4 * h <= g_last_arr s <= p - 2 * h /\ p <= k_now s
            | None => 2 * h * (g_ticks s - 1) <= g_last_arr s
            end }.

(* projections of an explicit state; bare cbn would also unfold the arithmetic *)
Ltac kcbn := cbn [k_now k_pending k_ping_at k_pong k_dead g_ticks g_arr_since_tick g_last_arr g_first_ping negb option_map].

(* For an explicit state each field of KI is linear arithmetic over the fields it was built from, or holds by computation:
   after kcbn, lia or easy settles it; only i_first sometimes needs a witness. *)
Lemma KI_init h : 0 < h -> KI h (ka_init h).
Proof. intro H. unfold ka_init, interval. constructor; kcbn; try lia; easy. Qed.

Lemma KI_step h s e s' o : 0 < h -> KI h s -> ka_step h s e = Some (s', o) -> KI h s'.
Proof.
  intros Hh Hi E. destruct (ka_step_inv _ _ _ _ _ E) as [Ed Q]. clear E.
  pose proof (i_ping_at _ _ Hi) as Ping_at. pose proof (i_now _ _ Hi) as Now. pose proof (i_ticks _ _ Hi) as Ticks.
  pose proof (i_pending _ _ Hi) as Pending. pose proof (i_pong _ _ Hi Ed) as Pong. pose proof (i_deadline _ _ Hi) as Deadline.
  pose proof (i_last _ _ Hi) as Last. pose proof (i_since _ _ Hi) as Since. pose proof (i_first _ _ Hi) as First.
  destruct e.
  - (* arrival *)
    destruct Q as [-> _]. constructor; kcbn; try lia; easy.
  - (* tick: a ping iff the interval was idle; it is the first one iff none is recorded *)
    destruct Q as (En & -> & _). rewrite Pending.
    destruct (g_first_ping s) as [p|]; cbn [option_map] in Pong; rewrite Pong in *.
    + (* a first ping is recorded and stays: i_first of s' is First after one more tick *)
      destruct First as ((j & Hj & Hp) & Hb & Hc).
      assert (First' : (exists j, 1 <= j <= g_ticks s + 1 /\ p = 2 * h * j) /\ p - 4 * h <= g_last_arr s <= p - 2 * h /\ p <= k_now s)
        by (split; [exists j; lia|lia]).
      destruct (g_arr_since_tick s); constructor; kcbn; try lia; easy.
    + destruct (g_arr_since_tick s); constructor; kcbn; try lia; try easy.
      (* i_first after an idle interval: this tick writes the first ping *)
      split; [exists (g_ticks s + 1); lia|lia].
  - (* pong deadline *)
    destruct Q as (Ep & -> & _). constructor; kcbn; try lia; easy.
  - (* time moves *)
    destruct Q as (Ht & Hd & -> & _). constructor; kcbn; try lia; try easy.
    (* i_first: only its bound by k_now moves *)
    destruct (g_first_ping s); [destruct First as (Ha & Hb & Hc); split; [exact Ha|lia]|exact First].
Qed.

Lemma armed_pong h s d : KI h s -> k_dead s = false -> k_pong s = Some d ->
  exists p j, g_first_ping s = Some p /\ d = p + 9 * h /\ (1 <= j <= g_ticks s /\ p = 2 * h * j) /\
              p - 4 * h <= g_last_arr s <= p - 2 * h /\ p <= k_now s.
Proof.
  intros Hi Ed Ep. rewrite (i_pong _ _ Hi Ed) in Ep. pose proof (i_first _ _ Hi) as First.
  destruct (g_first_ping s) as [p|]; [|discriminate].
  destruct First as ((j & Hj) & Hb). exists p, j. split; [reflexivity|]. split; [cbn [option_map] in Ep; congruence|]. auto.
Qed.

Definition obs_ok (h : Z) (x : kobs) : Prop :=
  match x with
  | KPingSent t => exists j, 1 <= j /\ t = 2 * h * j
  | KDead t => exists p j, 1 <= j /\ p = 2 * h * j /\ t = p + 9 * h
  end.

Lemma step_obs h s e s' o : KI h s -> ka_step h s e = Some (s', o) -> Forall (obs_ok h) o.
Proof.
  intros Hi E. destruct (ka_step_inv _ _ _ _ _ E) as [Ed Q]. destruct e.
  - (* arrival *) destruct Q as [_ ->]. constructor.
  - (* tick *)
    destruct Q as (En & _ & ->). destruct (k_pending s); repeat constructor. exists (g_ticks s + 1).
    pose proof (i_ping_at _ _ Hi). pose proof (i_ticks _ _ Hi). lia.
  - (* pong deadline *)
    destruct Q as (Ep & _ & ->). repeat constructor. destruct (armed_pong _ _ _ Hi Ed Ep) as (p & j & _ & -> & (Hj & Hp) & _).
    exists p, j. split; [lia|]. split; [exact Hp|reflexivity].
  - (* time moves *) destruct Q as (_ & _ & _ & ->). constructor.
Qed.

Lemma KI_run h es : forall s s' o, 0 < h -> KI h s -> ka_run h s es = Some (s', o) -> KI h s' /\ Forall (obs_ok h) o.
Proof.
  induction es as [|e es IH]; intros s s' o Hh Hi E; cbn [ka_run] in E.
  - injection E as <- <-. split; [exact Hi|constructor].
  - destruct (ka_step h s e) as [[s1 o1]|] eqn:Es; [|discriminate].
    destruct (ka_run h s1 es) as [[s2 o2]|] eqn:Er; [|discriminate]. injection E as <- <-.
    destruct (IH _ _ _ Hh (KI_step _ _ _ _ _ Hh Hi Es) Er) as [Hi' F]. split; [exact Hi'|].
    apply Forall_app. split; [exact (step_obs _ _ _ _ _ Hi Es)|exact F].
Qed.
