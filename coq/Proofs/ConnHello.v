(* C06: the hello/login decision and the only way finish_connection can succeed. *)
From Coq Require Import NArith ZArith List Bool Lia.
From RecordUpdate Require Import RecordSet.
From Verif Require Import Generated.GenConstants Model.Conn Proofs.ConnMoves.
Import ListNotations RecordSetNotations.
Open Scope Z_scope.
Open Scope list_scope.

Definition hello_ok (c : conn) (h : msg) : Prop :=
  m_ty h = T_HELLO_RESP /\ Z.of_N (m_major h) <= MAX_SUPPORTED_MAJOR /\ (m_name h = NameOther -> expect_name c = false).
Definition login_ok (l : msg) : Prop := m_ty l = T_CONNECT_RESP /\ m_invalid_password l = false.

Theorem check_ok_iff c rs :
  check_hello_login c rs = None <->
  exists h r, rs = h :: r /\ hello_ok c h /\ (login c = true -> exists l r', r = l :: r' /\ login_ok l).
Proof.
  unfold check_hello_login, hello_ok, login_ok. split.
  - destruct rs as [|h r]; [discriminate|].
    destruct (N.eqb (m_ty h) T_HELLO_RESP) eqn:E1; cbn [negb]; [|discriminate].
    destruct (Z.ltb MAX_SUPPORTED_MAJOR (Z.of_N (m_major h))) eqn:E2; [discriminate|].
    destruct (match m_name h with NameOther => expect_name c | _ => false end) eqn:E3; [discriminate|].
    intro E. exists h, r. split; [reflexivity|]. split.
    + apply N.eqb_eq in E1. apply Z.ltb_ge in E2. repeat split; auto. intro Hn. rewrite Hn in E3. exact E3.
    + intro Hl. rewrite Hl in E. destruct r as [|l r']; [discriminate|].
      destruct (N.eqb (m_ty l) T_CONNECT_RESP) eqn:E4; cbn [negb] in E; [|discriminate].
      destruct (m_invalid_password l) eqn:E5; [discriminate|]. apply N.eqb_eq in E4. eauto.
  - intros (h & r & -> & (H1 & H2 & H3) & H4).
    apply N.eqb_eq in H1. rewrite H1. cbn [negb]. apply Z.ltb_ge in H2. rewrite H2.
    replace (match m_name h with NameOther => expect_name c | _ => false end) with false
      by (destruct (m_name h); auto; symmetry; apply H3; reflexivity).
    destruct (login c); [|reflexivity]. destruct (H4 eq_refl) as (l & r' & -> & H5 & H6).
    apply N.eqb_eq in H5. rewrite H5, H6. reflexivity.
Qed.

Theorem incompatible_version c h r :
  m_ty h = T_HELLO_RESP -> MAX_SUPPORTED_MAJOR < Z.of_N (m_major h) -> check_hello_login c (h :: r) = Some (Lib LConn).
Proof. intros H1 H2. unfold check_hello_login. apply N.eqb_eq in H1. rewrite H1. apply Z.ltb_lt in H2. rewrite H2. reflexivity. Qed.
Theorem bad_name c h r :
  m_ty h = T_HELLO_RESP -> Z.of_N (m_major h) <= MAX_SUPPORTED_MAJOR -> m_name h = NameOther -> expect_name c = true ->
  check_hello_login c (h :: r) = Some (Lib LBadName).
Proof.
  intros H1 H2 H3 H4. unfold check_hello_login. apply N.eqb_eq in H1. rewrite H1. apply Z.ltb_ge in H2. rewrite H2, H3, H4. reflexivity.
Qed.
Theorem invalid_auth c h l r :
  hello_ok c h -> login c = true -> m_ty l = T_CONNECT_RESP -> m_invalid_password l = true ->
  check_hello_login c (h :: l :: r) = Some (Lib LInvalidAuth).
Proof.
  intros (H1 & H2 & H3) H4 H5 H6. unfold check_hello_login. apply N.eqb_eq in H1. rewrite H1. apply Z.ltb_ge in H2. rewrite H2.
  replace (match m_name h with NameOther => expect_name c | _ => false end) with false
    by (destruct (m_name h); auto; symmetry; apply H3; reflexivity).
  cbn [negb]. rewrite H4. apply N.eqb_eq in H5. rewrite H5, H6. reflexivity.
Qed.

Definition is_finish_ok (x : obs) : bool := match x with OTaskDone TFinish TOk => true | _ => false end.
Definition no_ok (o : list obs) : Prop := existsb is_finish_ok o = false.
Lemma no_ok_app a b : no_ok a -> no_ok b -> no_ok (a ++ b).
Proof. unfold no_ok. intros A B. rewrite existsb_app, A, B. reflexivity. Qed.

Lemma no_ok_cpath c o c' : cpath c o c' -> no_ok o.
Proof.
  apply (path_rel_obs close_atom (fun _ o _ => no_ok o)); [reflexivity|intros; apply no_ok_app; assumption|destruct 1; reflexivity].
Qed.
Lemma no_ok_cleanup c : no_ok (snd (cleanup c)).
Proof. exact (no_ok_cpath _ _ _ (path_cleanup c)). Qed.
Lemma no_ok_finish_fail c e : no_ok (snd (finish_fail c e)).
Proof.
  unfold finish_fail. destruct (interrupt_exit c TFinish e) as [c0 e1].
  match goal with |- context [cleanup ?x] => pose proof (no_ok_cleanup x) as D; destruct (cleanup x) as [c2 o] end. cbn [snd] in D.
  unfold finish_task. cbn [snd]. apply no_ok_app; [exact D|reflexivity].
Qed.
Lemma no_ok_send c tys : no_ok (snd (fst (send_messages c tys))).
Proof. exact (no_ok_cpath _ _ _ (path_send_messages c tys)). Qed.
Lemma no_ok_finish_after_ready c : no_ok (snd (finish_after_ready c)).
Proof.
  unfold finish_after_ready. destruct (cs _); try apply no_ok_finish_fail;
  unfold call_begin;
  match goal with |- context [send_messages ?x ?t] => pose proof (no_ok_send x t) as D; destruct (send_messages x t) as [[c1 o] ex] end;
  cbn [fst snd] in D; destruct ex; cbn [snd]; try exact D;
  match goal with |- context [finish_fail ?x ?e] => pose proof (no_ok_finish_fail x e) as D2; destruct (finish_fail x e) as [c3 o3] end;
  cbn [snd] in *; apply no_ok_app; assumption.
Qed.

Lemma finish_success_obs c :
  existsb is_finish_ok (snd (finish_success c)) = true ->
  cs (fst (finish_success c)) = Connected /\ is_connected (fst (finish_success c)) = true.
Proof.
  unfold finish_success.
  match goal with |- context [cs ?x] => destruct (cs x) eqn:Ecs end; try (intros _; split; reflexivity).
  match goal with |- context [cleanup ?x] => pose proof (no_ok_cleanup x) as D; destruct (cleanup x) as [c3 o3] end.
  unfold finish_task. cbn [fst snd] in *. intro Hok. rewrite existsb_app, D in Hok. discriminate.
Qed.

Theorem finish_ok_only_if_check c c' o :
  wake_finish c = Some (c', o) -> existsb is_finish_ok o = true ->
  exists cid kk, pc (t_finish c) = PF_Hello cid /\ get_call c cid = Some kk /\ c_fut kk = CResult /\
                 must_cancel (t_finish c) = false /\
                 check_hello_login (call_finally c cid) (c_responses kk) = None /\
                 cs c' = Connected /\ is_connected c' = true.
Proof.
  unfold wake_finish. intros E Hok.
  assert (N : forall r : conn * list obs, no_ok (snd r) -> Some r = Some (c', o) -> False).
  { intros r D Q. apply some_inj in Q. subst r. unfold no_ok in D. cbn [snd] in D. congruence. }
  pose proof (fun x e => N _ (no_ok_finish_fail x e)) as F. pose proof (fun x => N _ (no_ok_finish_after_ready x)) as FR.
  change (get_task c TFinish) with (t_finish c) in E.
  destruct (pc (t_finish c)) as [| | | | |cid| | | |] eqn:Epc; try discriminate.
  - (* PF_Create: the task goes on to wait, or fails *)
    exfalso. destruct (must_cancel (t_finish c) || _); [|discriminate]. destruct (take_cancel c TFinish) as [c1 mc].
    match type of E with match ?d with _ => _ end = _ => destruct d as [|e] end.
    + match type of E with context [ready ?x] => destruct (ready x) end; eauto.
      injection E as E1 E2. subst o. discriminate.
    + match type of E with context [finish_fail ?x e] => pose proof (no_ok_finish_fail x e) as D; destruct (finish_fail x e) as [c3 o3] end.
      injection E as E1 E2. subst o. cbn [snd] in D. unfold no_ok in D. rewrite existsb_app in Hok. rewrite D in Hok.
      destruct (transport c1); discriminate.
  - (* PF_Ready: the task goes on to send hello, or fails *)
    exfalso. destruct (must_cancel (t_finish c) || _); [|discriminate]. destruct (take_cancel c TFinish) as [c1 mc].
    destruct mc; [eauto|]. destruct (ready c1); eauto.
  - (* PF_Hello cid *)
    destruct (get_call c cid) as [kk|] eqn:Ek; [|discriminate].
    destruct (must_cancel (t_finish c)) eqn:Emc.
    + exfalso. cbn [orb] in E. unfold take_cancel in E. change (get_task c TFinish) with (t_finish c) in E. rewrite Emc in E. eauto.
    + cbn [orb] in E. destruct (cfut_done (c_fut kk)) eqn:Ed; [|discriminate].
      assert (Etc : take_cancel c TFinish = (c, false)) by (unfold take_cancel; change (get_task c TFinish) with (t_finish c); rewrite Emc; reflexivity).
      rewrite Etc in E.
      destruct (c_fut kk) as [| |x|] eqn:Ef; cbn [deliver_cfut] in E; try discriminate.
      * (* CResult *) destruct (check_hello_login (call_finally c cid) (c_responses kk)) eqn:Ec; [exfalso; eauto|].
        injection E as E. pose proof (finish_success_obs (call_finally c cid)) as K. rewrite E in K. cbn [fst snd] in K.
        destruct (K Hok) as [K1 K2]. exists cid, kk. repeat split; auto.
      * (* CExc x *) exfalso. destruct x; eauto.
      * (* CCancelled *) exfalso. eauto.
Qed.
