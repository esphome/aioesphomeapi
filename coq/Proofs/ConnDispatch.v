(* C12: dispatch of one incoming packet (process_packet / run_handlers of Model/Conn.v). *)
From Coq Require Import NArith ZArith List Bool Lia.
From RecordUpdate Require Import RecordSet.
From Verif Require Import Generated.GenRegistry Generated.GenConstants Model.Conn Proofs.ConnMoves Proofs.ConnErrors.
Import ListNotations RecordSetNotations.
Open Scope Z_scope.
Open Scope list_scope.

Definition deliveries (o : list obs) : list (nat * msg) :=
  flat_map (fun x => match x with ODeliver u m => [(u, m)] | _ => [] end) o.
Definition users_of (hs : list hid) : list nat :=
  flat_map (fun h => match h with HUser u => [u] | _ => [] end) hs.

Lemma deliveries_app a b : deliveries (a ++ b) = deliveries a ++ deliveries b.
Proof. apply flat_map_app. Qed.

Lemma deliveries_cpath c o c' : cpath c o c' -> deliveries o = [].
Proof.
  apply (path_rel_obs close_atom (fun _ o _ => deliveries o = [])); [reflexivity| |destruct 1; reflexivity].
  intros _ o1 _ o2 _ H1 H2. rewrite deliveries_app, H1, H2. reflexivity.
Qed.
Lemma deliveries_send c tys : deliveries (snd (fst (send_messages c tys))) = [].
Proof. exact (deliveries_cpath _ _ _ (path_send_messages c tys)). Qed.

Lemma deliveries_call_handler c h m :
  deliveries (snd (fst (call_handler c h m))) = match h with HUser u => [(u, m)] | _ => [] end.
Proof.
  destruct h; cbn [call_handler].
  - (* HDisc: the response is sent, then _cleanup *)
    match goal with |- context [send_messages ?x ?t] => pose proof (deliveries_send x t) as D; destruct (send_messages x t) as [[c2 o] ex] end.
    cbn [fst snd] in D. destruct ex; cbn [fst snd]; [exact D|].
    pose proof (deliveries_cpath _ _ _ (path_cleanup c2)) as D2. destruct (cleanup c2) as [c3 o3]. cbn [fst snd] in *.
    rewrite deliveries_app, D, D2. reflexivity.
  - (* HPing *) apply deliveries_send.
  - (* HTime *) apply deliveries_send.
  - (* HCall: the frame goes to the call, silently *) reflexivity.
  - (* HUser *) reflexivity.
Qed.

(* every subscriber in the snapshot taken when the dispatch starts is called exactly once, in snapshot order,
   whatever the subscribers do to the handler table while they run (their scripts act on the state, not on hs) *)
Theorem dispatch_exactly_once hs m : forall c c' o,
  run_handlers c hs m = (c', o, None) -> deliveries o = map (fun u => (u, m)) (users_of hs).
Proof.
  induction hs as [|h hs IH]; intros c c' o E; cbn [run_handlers] in E.
  - injection E as _ <-. reflexivity.
  - pose proof (deliveries_call_handler c h m) as D. destruct (call_handler c h m) as [[c1 o1] ex]. cbn [fst snd] in D.
    destruct ex; [discriminate|].
    destruct (run_handlers c1 hs m) as [[c2 o2] ex2] eqn:E2. injection E as _ <- ->.
    rewrite deliveries_app, D, (IH _ _ _ E2).
    destruct h; reflexivity.
Qed.

(* if a handler raises (only the internal responders can: their write fails) the deliveries made so far
   are a prefix of the snapshot *)
Theorem dispatch_prefix hs m : forall c c' o ex,
  run_handlers c hs m = (c', o, ex) -> exists k, deliveries o = map (fun u => (u, m)) (firstn k (users_of hs)).
Proof.
  induction hs as [|h hs IH]; intros c c' o ex E; cbn [run_handlers] in E.
  - injection E as _ <- _. exists 0%nat. reflexivity.
  - pose proof (deliveries_call_handler c h m) as D. destruct (call_handler c h m) as [[c1 o1] ex1]. cbn [fst snd] in D.
    destruct ex1.
    + injection E as _ <- _. destruct h; try (exists 0%nat; rewrite D; reflexivity). exists 1%nat. rewrite D. reflexivity.
    + destruct (run_handlers c1 hs m) as [[c2 o2] ex2] eqn:E2. injection E as _ <- _.
      destruct (IH _ _ _ _ E2) as [k Hk]. rewrite deliveries_app, D, Hk.
      destruct h; try (exists k; reflexivity). exists (S k). reflexivity.
Qed.

Definition snapshot (c : conn) (ty : N) : list hid := map snd (filter (fun p => N.eqb (fst p) ty) (handlers c)).

Theorem unknown_type_ignored c m : registered (m_ty m) = false -> process_packet c m = (c, [], None).
Proof. intro H. unfold process_packet. rewrite H. destruct (cs c); reflexivity. Qed.

Theorem registered_iff ty : registered ty = true <-> (1 <= ty <= N.of_nat (length registry))%N.
Proof. unfold registered. rewrite andb_true_iff, !N.leb_le. tauto. Qed.

Theorem bad_payload_closes c m :
  cs c <> Closed -> registered (m_ty m) = true -> m_valid m = false ->
  exists c' o, process_packet c m = (c', o, Some (Raw ROther)) /\ cs c' = Closed /\ deliveries o = [] /\
               fatal c' = Some (match fatal c with Some e => e | None => Lib LProtocol end).
Proof.
  intros Hn Hr Hv. unfold process_packet. rewrite Hr, Hv. cbn [negb].
  pose proof (deliveries_cpath _ _ _ (path_report_fatal c (Lib LProtocol))) as D.
  assert (Hcs : cs (fst (report_fatal c (Lib LProtocol))) = Closed) by (unfold report_fatal; destruct (fatal c); apply cs_cleanup).
  pose proof (first_cause_kept c (Lib LProtocol)) as Hf.
  destruct (report_fatal c (Lib LProtocol)) as [c1 o1]. cbn [fst snd] in *.
  destruct (cs c); try contradiction; exists c1, o1; auto.
Qed.

Theorem known_type_dispatched c m c' o :
  cs c <> Closed -> registered (m_ty m) = true -> m_valid m = true ->
  process_packet c m = (c', o, None) ->
  deliveries o = map (fun u => (u, m)) (users_of (snapshot c (m_ty m))).
Proof.
  intros Hn Hr Hv E. unfold process_packet in E. rewrite Hr, Hv in E. cbn [negb] in E.
  destruct (cs c); try contradiction; apply dispatch_exactly_once in E; exact E.
Qed.

Definition can_write (c : conn) : Prop := handshake_complete c = true /\ write_fails c = false /\ transport c = TOpen.

Lemma send_messages_can_write c tys : can_write c -> send_messages c tys = (c, [OWrite tys], None).
Proof. intros (A & B & D). unfold send_messages. rewrite A, B, D. reflexivity. Qed.

Theorem ping_answered c m : can_write c -> call_handler c HPing m = (c, [OWrite [T_PING_RESP]], None).
Proof. exact (send_messages_can_write c [T_PING_RESP]). Qed.
Theorem time_answered c m : can_write c -> call_handler c HTime m = (c, [OWrite [T_TIME_RESP]], None).
Proof. exact (send_messages_can_write c [T_TIME_RESP]). Qed.
Lemma expected_cpath c o c' : cpath c o c' -> expected_disconnect c' = expected_disconnect c.
Proof.
  apply (path_rel close_atom (fun a b => expected_disconnect b = expected_disconnect a));
    [reflexivity|intros; congruence|destruct 1; reflexivity].
Qed.
Theorem disconnect_answered_then_expected_close c m :
  can_write c ->
  exists c' o, call_handler c HDisc m = (c', OWrite [T_DISC_RESP] :: o, None) /\ cs c' = Closed /\
               expected_disconnect c' = true.
Proof.
  intro W. cbn [call_handler]. set (c1 := c <| expected_disconnect := true |>).
  (* setting expected_disconnect leaves the three fields of can_write as they are *)
  rewrite (send_messages_can_write c1 [T_DISC_RESP] W).
  pose proof (cs_cleanup c1) as Hcs.
  pose proof (expected_cpath _ _ _ (path_cleanup c1)) as Hex. change (expected_disconnect c1) with true in Hex.
  destruct (cleanup c1) as [c3 o3]. cbn [fst snd] in *. exists c3, o3. auto.
Qed.
