(* C09: classification of errors, first fatal cause wins, start_connection arms its timer. *)
From Coq Require Import NArith ZArith List Bool.
From RecordUpdate Require Import RecordSet.
From Verif Require Import Generated.GenConstants Model.Conn Proofs.ConnMoves.
Import ListNotations RecordSetNotations.
Open Scope Z_scope.
Open Scope list_scope.

Theorem wrap_fatal_is_library c e : exists l, wrap_fatal c e = Lib l.
Proof.
  unfold wrap_fatal. destruct e as [x|r| | | |]; eauto; destruct (fatal c) as [[l| | | | |]|]; eauto; cbn; eauto.
  (* Raw r: an OSError becomes a socket error, anything else an unhandled one *)
  all: destruct r; cbn; eauto.
Qed.

Theorem waiter_exc_is_library f : exists l, waiter_exc f = Lib l.
Proof. destruct f as [[l| | | | |]|]; cbn; eauto. Qed.

Definition lib_or_ok (r : tres) : Prop := r = TOk \/ exists l, r = TRaise (Lib l).
Definition done_ok (t : tid) (o : list obs) : Prop := forall r, In (OTaskDone t r) o -> lib_or_ok r.

Lemma done_ok_app t a b : done_ok t a -> done_ok t b -> done_ok t (a ++ b).
Proof. intros A B r H. apply in_app_or in H. destruct H; auto. Qed.
Lemma done_ok_nil t : done_ok t [].
Proof. intros r []. Qed.

Definition no_done (o : list obs) : Prop := forall t r, ~ In (OTaskDone t r) o.
Lemma no_done_ok t o : no_done o -> done_ok t o.
Proof. intros H r Hin. exfalso. exact (H _ _ Hin). Qed.
Lemma no_done_app a b : no_done a -> no_done b -> no_done (a ++ b).
Proof. intros A B t r H. apply in_app_or in H. destruct H; [eapply A|eapply B]; eassumption. Qed.

Lemma no_done_lit o : forallb (fun x => match x with OTaskDone _ _ => false | _ => true end) o = true -> no_done o.
Proof.
  intros H t r Hin. rewrite forallb_forall in H. specialize (H _ Hin). discriminate.
Qed.

Lemma no_done_close c o c' : close_atom c o c' -> no_done o.
Proof. destruct 1; apply no_done_lit; reflexivity. Qed.
Lemma no_done_data c o c' : data_atom c o c' -> no_done o.
Proof. destruct 1 as [c o c' H| | | | |]; [exact (no_done_close _ _ _ H)|apply no_done_lit; reflexivity..]. Qed.
Lemma no_done_cpath c o c' : cpath c o c' -> no_done o.
Proof.
  apply (path_rel_obs close_atom (fun _ o _ => no_done o)); [intros _ t r []| |exact no_done_close].
  intros a o1 b o2 d. apply no_done_app.
Qed.
Lemma no_done_cleanup c : no_done (snd (cleanup c)).
Proof. exact (no_done_cpath _ _ _ (path_cleanup c)). Qed.

Lemma lib_or_ok_wrap c e : lib_or_ok (TRaise (wrap_fatal c e)).
Proof. right. destruct (wrap_fatal_is_library c e) as [l ->]. eauto. Qed.
Lemma done_ok_one t r : lib_or_ok r -> done_ok t [OTaskDone t r].
Proof. intros H r' [E|[]]. injection E as <-. exact H. Qed.

(* the tail of a connect phase that failed or found the connection closed *)
Lemma cleanup_finish_classified c t (post : conn -> conn) e :
  done_ok t (snd (let '(c2, o) := cleanup c in let '(c4, o2) := finish_task (post c2) t (TRaise (wrap_fatal c2 e)) in (c4, o ++ o2))).
Proof.
  pose proof (no_done_cleanup c) as D. destruct (cleanup c) as [c2 o]. cbn [snd] in D.
  unfold finish_task. cbn [snd]. apply done_ok_app; [apply no_done_ok, D|apply done_ok_one, lib_or_ok_wrap].
Qed.

Theorem start_fail_classified c e : done_ok TStart (snd (start_fail c e)).
Proof.
  unfold start_fail. destruct (interrupt_exit c TStart e) as [c0 e1]. exact (cleanup_finish_classified _ TStart set_start_future e1).
Qed.
Theorem finish_fail_classified c e : done_ok TFinish (snd (finish_fail c e)).
Proof.
  unfold finish_fail. destruct (interrupt_exit c TFinish e) as [c0 e1]. exact (cleanup_finish_classified _ TFinish set_finish_future e1).
Qed.

(* start_connection: whatever happens (resolve/connect error or hang, cancellation, close in between) the task ends
   with its result or an error of the library hierarchy - never a raw OSError / TimeoutError / CancelledError *)
Theorem start_task_classified c c' o : wake_start c = Some (c', o) -> done_ok TStart o.
Proof.
  assert (fin : forall r, Some r = Some (c', o) -> done_ok TStart (snd r) -> done_ok TStart o)
    by (intros r E B; apply some_inj in E; subst r; exact B).
  unfold wake_start. intro E.
  destruct (pc (get_task c TStart)) as [| |g| | | | | | |]; try discriminate.
  - (* PS_Resolve *)
    destruct (must_cancel _ || _); [|discriminate]. destruct (take_cancel c TStart) as [c1 mc].
    match type of E with match ?d with _ => _ end = _ => destruct d as [|e] end.
    + apply (fin _ E), done_ok_nil.
    + destruct (timeout_exit _ TStart e) as [c2 e1]. apply (fin _ E), start_fail_classified.
  - (* PS_Tcp g *)
    destruct (must_cancel _ || _); [|discriminate]. destruct (take_cancel c TStart) as [c1 mc].
    match type of E with match ?d with _ => _ end = _ => destruct d as [|e] end.
    + (* connected *)
      apply (fin _ E). unfold start_success. cbn zeta.
      match goal with |- context [cs ?x] => destruct (cs x) end;
        try (apply done_ok_one; left; reflexivity).
      exact (cleanup_finish_classified _ TStart (fun x => x) Interrupted).
    + destruct (timeout_exit _ TStart e) as [c2 e1]. destruct (is_oserror e1).
      * (* the attempt failed: on to the next group of addresses, if there is one *)
        destruct g as [|[|g']]; apply (fin _ E); try apply start_fail_classified. apply done_ok_nil.
      * apply (fin _ E), start_fail_classified.
Qed.

(* _cleanup never resets the cause, and report_fatal_error records one only when there is none *)
Lemma fatal_kept c o c' : cpath c o c' -> forall f, fatal c = Some f -> fatal c' = Some f.
Proof.
  apply (path_rel close_atom (fun a b => forall f, fatal a = Some f -> fatal b = Some f)); [auto|auto|].
  clear. destruct 1; intros f E; try exact E.
  - (* AFatal *) congruence.
Qed.

Theorem first_cause_kept c e :
  fatal (fst (report_fatal c e)) = Some (match fatal c with Some f => f | None => e end).
Proof. unfold report_fatal. destruct (fatal c) eqn:Ef; apply (fatal_kept _ _ _ (path_cleanup _)); [exact Ef|reflexivity]. Qed.

Lemma closed_calls c o c' : cpath c o c' -> cs c = Closed -> cs c' = Closed /\ calls c' = calls c.
Proof.
  apply (path_rel close_atom (fun a b => cs a = Closed -> cs b = Closed /\ calls b = calls a)).
  - auto.
  - intros a b d H1 H2 E. destruct (H1 E) as [E1 Q1]. destruct (H2 E1) as [E2 Q2]. split; congruence.
  - destruct 1; intro E; try (split; [exact E|reflexivity]).
    (* ACloseState: made only from a state that is not CLOSED *) contradiction.
Qed.

(* what a pending waiter receives when the connection closes is derived from the first fatal cause alone *)
Theorem waiters_get_first_cause c k :
  cs c <> Closed -> In k (calls c) -> c_fut k = CPending -> existsb (Nat.eqb (c_id k)) (waiters c) = true ->
  exists k', In k' (calls (fst (cleanup c))) /\ c_id k' = c_id k /\ c_fut k' = CExc (waiter_exc (fatal c)).
Proof.
  intros Hn Hin Hp Hw.
  assert (Q : calls (fst (cleanup c)) =
              map (fun k => if existsb (Nat.eqb (c_id k)) (waiters c) then fail_waiter (waiter_exc (fatal c)) k else k) (calls c)).
  { change (calls (fst (cleanup c)) = calls (close_state c)).
    destruct (closed_calls (close_state c) [] (pre_close c)) as [_ <-];
      [eapply path_then; [apply path_set_start_future|apply path_set_finish_future|reflexivity]|reflexivity|].
    rewrite cleanup_open by exact Hn.
    destruct (closed_calls _ _ _ (path_release (pre_close c) (cs_pre_close c)) (cs_pre_close c)) as [_ Q].
    destruct (release_resources (pre_close c)) as [c4 o4]. destruct (on_stop_armed c4 && _); exact Q. }
  exists (fail_waiter (waiter_exc (fatal c)) k). split.
  - rewrite Q. apply in_map_iff. exists k. split; [|exact Hin]. rewrite Hw. reflexivity.
  - unfold fail_waiter. rewrite Hp. split; reflexivity.
Qed.

(* start_connection enters its first await with the resolve timer armed (time cannot pass an armed deadline: ConnCalls.advance_respects_deadlines) *)
Theorem start_arms_resolve_timer c c' :
  step c LStart = Some (c', []) -> conn_timer c' = Some (now c + RESOLVE_TIMEOUT) /\ In (now c + RESOLVE_TIMEOUT) (armed_deadlines c').
Proof.
  cbn [step]. destruct (cs c); try discriminate. destruct (pc (t_start c)); try discriminate.
  intro E. injection E as <-. split; [reflexivity|].
  unfold armed_deadlines. cbn. repeat (apply in_or_app; first [left; solve [left; reflexivity] | right]).
  destruct (ping_timer c), (pong_timer c), (hs_timer c); cbn; auto.
Qed.
