(* C17.  One subscription of Model/Subs.v at a time: feed gives it messages only; sub_run gives it events (messages, its
   unsubscribe call, completions of its start tasks).  Subs.srun, all subscriptions side by side, occurs in the examples
   of C17 only. *)
From Coq Require Import NArith List Bool.
From Verif Require Import Model.Subs Proofs.ListFacts.
Import ListNotations.
Open Scope N_scope.

Definition pending (s : stream) (k : N) : list N :=
  match s_get s k with Some (x :: r) => concat (x :: r) | _ => [] end.

Lemma s_get_del s k k' : s_get (s_del s k) k' = if k =? k' then None else s_get s k'.
Proof.
  induction s as [|[k0 v] s IH]; cbn; [destruct (k =? k'); reflexivity|].
  destruct (k0 =? k) eqn:E; cbn; rewrite IH; [apply N.eqb_eq in E; rewrite E; destruct (k =? k'); reflexivity|].
  destruct (k0 =? k') eqn:E'; [|reflexivity]. apply N.eqb_eq in E'. rewrite <- E', N.eqb_sym, E. reflexivity.
Qed.
Lemma s_get_set s k v k' : s_get (s_set s k v) k' = if k =? k' then Some v else s_get s k'.
Proof. unfold s_set. cbn. rewrite s_get_del. destruct (k =? k'); reflexivity. Qed.

Lemma parts_snoc s k d : concat (match s_get s k with Some (x :: r) => x :: r | _ => [] end ++ [d]) = pending s k ++ d.
Proof.
  rewrite concat_app. cbn [concat]. rewrite app_nil_r. unfold pending. destruct (s_get s k) as [[|x r]|]; reflexivity.
Qed.

Lemma camera_step_obs s k d done : snd (camera_step s k d done) = if done then [CbCamera k (pending s k ++ d)] else [].
Proof. unfold camera_step. cbv zeta. destruct done; [|reflexivity]. cbn [snd]. rewrite parts_snoc. reflexivity. Qed.
Lemma camera_step_pending s k d done k' :
  pending (fst (camera_step s k d done)) k' = if k =? k' then (if done then [] else pending s k ++ d) else pending s k'.
Proof.
  unfold camera_step. cbv zeta. destruct done; cbn [fst]; unfold pending at 1; [rewrite s_get_del|rewrite s_get_set];
    destruct (k =? k'); try reflexivity.
  rewrite <- parts_snoc. destruct (_ ++ [d]); reflexivity.
Qed.

Fixpoint feed (st : sub) (ms : list smsg) : sub * list sobs :=
  match ms with
  | [] => (st, [])
  | m :: r => let '(st1, o1) := on_msg st m in let '(st2, o2) := feed st1 r in (st2, o1 ++ o2)
  end.

Definition is_camera_of (k : N) (x : sobs) : bool := match x with CbCamera k' _ => k' =? k | _ => false end.
Definition is_state_cb (x : sobs) : bool := match x with CbState _ _ _ => true | _ => false end.
Definition state_cbs (ms : list smsg) : list sobs :=
  flat_map (fun m => match m with MState t k v => [CbState t k v] | _ => [] end) ms.

Definition states_sub (st : sub) : Prop := s_kind st = SubStates /\ s_live st = true.

Lemma feed_cons_obs st m ms : snd (feed st (m :: ms)) = snd (on_msg st m) ++ snd (feed (fst (on_msg st m)) ms).
Proof. cbn [feed]. destruct (on_msg st m) as [st1 o1]. cbn [fst snd]. destruct (feed st1 ms). reflexivity. Qed.

Lemma on_msg_states st m : states_sub st ->
  snd (on_msg st m) = match m with
                      | MState ty key vals => [CbState ty key vals]
                      | MCamera k d done => snd (camera_step (s_stream st) k d done)
                      | _ => []
                      end /\
  s_stream (fst (on_msg st m)) = match m with MCamera k d done => fst (camera_step (s_stream st) k d done) | _ => s_stream st end /\
  states_sub (fst (on_msg st m)).
Proof.
  intros [Hk Hl]. destruct (on_msg st m) as [st' o] eqn:E. unfold on_msg in E. rewrite Hl, Hk in E. cbn [fst snd].
  destruct m; try (injection E as <- <-; repeat split; assumption).
  (* MCamera *) destruct (camera_step (s_stream st) _ _ _). injection E as <- <-. repeat split.
Qed.

Theorem one_callback_per_state_message ms : forall st, states_sub st ->
  filter is_state_cb (snd (feed st ms)) = state_cbs ms.
Proof.
  induction ms as [|m ms IH]; intros st H; [reflexivity|]. destruct (on_msg_states st m H) as (Ho & _ & H1).
  rewrite feed_cons_obs, filter_app, (IH _ H1), Ho. destruct m as [|k d dn| | | | | | | | | |]; try reflexivity.
  (* MCamera *) rewrite camera_step_obs. destruct dn; reflexivity.
Qed.
Theorem state_message_one_callback st ty key vals : states_sub st -> on_msg st (MState ty key vals) = (st, [CbState ty key vals]).
Proof. intros [Hk Hl]. unfold on_msg. rewrite Hl, Hk. reflexivity. Qed.

Theorem camera_reassembly_per_key k ms : forall st, states_sub st ->
  filter (is_camera_of k) (snd (feed st ms)) = map (CbCamera k) (images (pending (s_stream st) k) (chunks_of k ms)).
Proof.
  induction ms as [|m ms IH]; intros st H; [reflexivity|]. destruct (on_msg_states st m H) as (Ho & Hs & H1).
  rewrite feed_cons_obs, filter_app, (IH _ H1), Ho, Hs. unfold chunks_of. cbn [flat_map].
  destruct m as [|k' d dn| | | | | | | | | |]; try reflexivity.
  (* MCamera *)
  rewrite camera_step_obs, camera_step_pending. destruct (k' =? k) eqn:E.
  - apply N.eqb_eq in E. rewrite E. destruct dn; cbn [images filter is_camera_of map app]; rewrite ?N.eqb_refl; reflexivity.
  - destruct dn; cbn [filter is_camera_of app]; rewrite ?E; reflexivity.
Qed.
Corollary camera_reassembly_fresh k ms st : states_sub st -> s_stream st = [] ->
  filter (is_camera_of k) (snd (feed st ms)) = map (CbCamera k) (images [] (chunks_of k ms)).
Proof. intros H He. rewrite (camera_reassembly_per_key k ms st H), He. reflexivity. Qed.

Theorem other_subscriptions_one_call st : s_live st = true ->
  (s_kind st = SubLogs -> forall p, on_msg st (MLog p) = (st, [CbLog p])) /\
  (s_kind st = SubServiceCalls -> forall p, on_msg st (MServiceCall p) = (st, [CbServiceCall p])) /\
  (forall wr, s_kind st = SubHaStates wr -> forall e a once,
     on_msg st (MHaState e a once) = (st, [if wr && once then CbHaRequest e a else CbHaSub e a])) /\
  (s_kind st = SubAdv -> forall p, on_msg st (MAdv p) = (st, [CbAdv p])) /\
  (s_kind st = SubRawAdv -> forall p, on_msg st (MRawAdv p) = (st, [CbRawAdv p])) /\
  (s_kind st = SubConnFree -> forall f l, on_msg st (MConnFree f l) = (st, [CbConnFree f l])) /\
  (forall a n, s_kind st = SubVa a n -> forall c f w, on_msg st (MVaRequest false c f w) = (st, [CbVaStop true])) /\
  (forall n, s_kind st = SubVa true n -> forall d last, on_msg st (MVaAudio d last) = (st, [if last then CbVaStop false else CbVaAudio d])) /\
  (forall a, s_kind st = SubVa a true -> forall p, on_msg st (MVaAnnounce p) = (st, [CbVaAnnounce p])).
Proof.
  intro Hl. unfold on_msg. rewrite Hl. cbn [negb].
  repeat split; [intros Hk p|intros Hk p|intros wr Hk e a once|intros Hk p|intros Hk p|intros Hk f l
                |intros a n Hk c f w|intros n Hk d last|intros a Hk p]; rewrite Hk; try reflexivity.
  (* the table looks at both flags of a voice-assistant subscription before it looks at the message *)
  - destruct a, n; reflexivity.
  - destruct n; reflexivity.
  - destruct a; reflexivity.
Qed.

Definition is_cb (x : sobs) : bool := match x with OWrite _ | OCancelStart _ => false | _ => true end.

(* the tasks of st with at most one of the running ones taken out: all that unsubscribing or a completion does to them *)
Definition shrinks (st st' : sub) : Prop :=
  s_next_task st' = s_next_task st /\ s_latest st' = s_latest st /\
  (s_running st' = s_running st \/ exists t, s_running st' = remove_task t (s_running st)).

Lemma shrinks_same st st' :
  s_next_task st' = s_next_task st -> s_latest st' = s_latest st -> s_running st' = s_running st -> shrinks st st'.
Proof. unfold shrinks. auto. Qed.

Lemma on_unsub_spec st :
  s_live (fst (on_unsub st)) = negb (can_unsub (s_kind st)) && s_live st /\
  filter is_cb (snd (on_unsub st)) = [] /\ shrinks st (fst (on_unsub st)).
Proof.
  unfold on_unsub, shrinks. destruct (s_kind st); cbn; auto 7.
  destruct (s_latest st) as [t|]; [destruct (mem t (s_running st))|]; cbn; eauto 7.
Qed.
Lemma on_start_done_spec st t r :
  s_live (fst (on_start_done st t r)) = s_live st /\
  filter is_cb (snd (on_start_done st t r)) = [] /\ shrinks st (fst (on_start_done st t r)).
Proof. unfold on_start_done, shrinks. destruct (mem t (s_running st)); [destruct r|]; cbn; eauto 7. Qed.

Theorem unsubscribed_is_silent st m : s_live st = false -> on_msg st m = (st, []).
Proof. intro H. unfold on_msg. rewrite H. reflexivity. Qed.
Theorem unsubscribe_is_immediate st : can_unsub (s_kind st) = true ->
  s_live (fst (on_unsub st)) = false /\ filter is_cb (snd (on_unsub st)) = [].
Proof. intro H. destruct (on_unsub_spec st) as (Hl & Ho & _). rewrite H in Hl. auto. Qed.
Lemma dead_stays_dead st e : s_live st = false -> s_live (fst (sub_step st e)) = false /\ filter is_cb (snd (sub_step st e)) = [].
Proof.
  intro H. destruct e as [id k|m|id|id t r]; cbn [sub_step]; try destruct (Nat.eqb id (s_id st)); auto.
  - (* SMsg *) rewrite (unsubscribed_is_silent _ _ H). auto.
  - (* its own SUnsub *) destruct (on_unsub_spec st) as (Hl & Ho & _). rewrite H, andb_false_r in Hl. auto.
  - (* its own SStartDone *) destruct (on_start_done_spec st t r) as (Hl & Ho & _). rewrite H in Hl. auto.
Qed.

Fixpoint sub_run (st : sub) (es : list sevent) : sub * list sobs :=
  match es with
  | [] => (st, [])
  | e :: r => let '(st1, o1) := sub_step st e in let '(st2, o2) := sub_run st1 r in (st2, o1 ++ o2)
  end.
Lemma sub_run_cons st e es :
  sub_run st (e :: es) = (fst (sub_run (fst (sub_step st e)) es), snd (sub_step st e) ++ snd (sub_run (fst (sub_step st e)) es)).
Proof. cbn [sub_run]. destruct (sub_step st e) as [st1 o1]. cbn [fst snd]. destruct (sub_run st1 es). reflexivity. Qed.

Theorem no_callback_after_unsubscribe es : forall st, s_live st = false -> filter is_cb (snd (sub_run st es)) = [].
Proof.
  induction es as [|e es IH]; intros st H; [reflexivity|]. destruct (dead_stays_dead st e H) as [H1 H2].
  rewrite sub_run_cons. cbn [snd]. rewrite filter_app, H2, (IH _ H1). reflexivity.
Qed.

Definition va_inv (st : sub) : Prop :=
  NoDup (s_running st) /\ (forall t, In t (s_running st) -> t < s_next_task st)%nat /\
  (forall t, s_latest st = Some t -> t < s_next_task st)%nat.

Lemma mem_in t l : mem t l = true <-> In t l.
Proof. exact (existsb_eqb_In Nat.eqb PeanoNat.Nat.eqb_eq t l). Qed.
Lemma remove_task_spec t l x : In x (remove_task t l) <-> In x l /\ x <> t.
Proof. unfold remove_task. rewrite filter_In, negb_true_iff, PeanoNat.Nat.eqb_neq. reflexivity. Qed.
Lemma remove_task_self t l : ~ In t (remove_task t l).
Proof. intro H. apply remove_task_spec in H as [_ H]. exact (H eq_refl). Qed.

Lemma va_inv_new id k : va_inv (new_sub id k).
Proof. repeat split; cbn; try constructor; intros; try contradiction; discriminate. Qed.

Lemma va_inv_shrinks st st' : shrinks st st' -> va_inv st -> va_inv st'.
Proof.
  intros (En & El & Er) (Hn & Hr & Hl). unfold va_inv. rewrite En, El. destruct Er as [->|[t ->]]; repeat split; auto.
  - apply NoDup_filter, Hn.
  - intros x H. apply remove_task_spec in H as [H _]. exact (Hr x H).
Qed.

(* a message leaves the tasks alone, unless it is a start request, which runs the handler as the next task *)
Definition task_step (st st' : sub) : Prop :=
  shrinks st st' \/
  s_next_task st' = S (s_next_task st) /\ s_latest st' = Some (s_next_task st) /\ s_running st' = s_running st ++ [s_next_task st].
Lemma task_step_refl st : task_step st st.
Proof. left. apply shrinks_same; reflexivity. Qed.
Lemma on_msg_tasks st m : task_step st (fst (on_msg st m)).
Proof.
  unfold on_msg. destruct (negb (s_live st)); [apply task_step_refl|].
  (* all entries of the table but two leave st as it is: a start request to a SubVa adds a task, and a camera chunk to
     SubStates changes the stream only *)
  destruct (s_kind st) as [| | | | | | |[] []], m as [|k d dn| | | | | | |[] c f w| | |]; try apply task_step_refl;
    [|right; auto..].
  destruct (camera_step (s_stream st) k d dn). left. apply shrinks_same; reflexivity.
Qed.

Lemma va_inv_step st e : va_inv st -> va_inv (fst (sub_step st e)).
Proof.
  intro H. destruct e as [id k|m|id|id t r]; cbn [sub_step]; try destruct (Nat.eqb id (s_id st)); try exact H.
  - (* SMsg: a start request adds the next task, which is above all the running ones *)
    destruct (on_msg_tasks st m) as [Hs|(En & El & Er)]; [exact (va_inv_shrinks _ _ Hs H)|].
    destruct H as (Hn & Hr & _). unfold va_inv. rewrite En, El, Er. repeat split.
    + apply NoDup_snoc; [exact Hn|]. intro H. exact (PeanoNat.Nat.lt_irrefl _ (Hr _ H)).
    + intros t H. apply in_app_or in H as [H|[<-|[]]]; [apply PeanoNat.Nat.lt_lt_succ_r, Hr, H|apply PeanoNat.Nat.lt_succ_diag_r].
    + intros t [= <-]. apply PeanoNat.Nat.lt_succ_diag_r.
  - apply (va_inv_shrinks st), H. apply on_unsub_spec.
  - apply (va_inv_shrinks st), H. apply on_start_done_spec.
Qed.

Theorem va_inv_run es : forall st, va_inv st -> va_inv (fst (sub_run st es)).
Proof.
  induction es as [|e es IH]; intros st H; [exact H|]. rewrite sub_run_cons. apply IH, va_inv_step, H.
Qed.

Theorem va_start_calls_handler st a n conv flags wake :
  s_live st = true -> s_kind st = SubVa a n -> va_inv st ->
  exists st', on_msg st (MVaRequest true conv flags wake) =
              (st', [CbVaStart (s_next_task st) conv flags (if wake =? 0 then None else Some wake)]) /\
              ~ In (s_next_task st) (s_running st) /\ In (s_next_task st) (s_running st') /\
              (forall t, In t (s_running st) -> In t (s_running st')).
Proof.
  intros Hl Hk (_ & Hr & _). unfold on_msg. rewrite Hl, Hk. cbn [negb].
  destruct a, n; eexists; (split; [reflexivity|]); cbn [s_running];
    (split; [intro H; exact (PeanoNat.Nat.lt_irrefl _ (Hr _ H))|split; [apply in_or_app; right; left; reflexivity|intros t H; apply in_or_app; left; exact H]]).
Qed.
Theorem va_start_answered st t r : va_inv st -> In t (s_running st) ->
  snd (on_start_done st t r) =
    match r with HPort p => [OWrite (WVaResponse (Some p))] | HNone => [OWrite (WVaResponse None)] | HRaise => [] end /\
  ~ In t (s_running (fst (on_start_done st t r))) /\
  (forall x, x <> t -> (In x (s_running (fst (on_start_done st t r))) <-> In x (s_running st))).
Proof.
  intros _ Hi. unfold on_start_done. apply mem_in in Hi. rewrite Hi. cbn [fst snd s_running].
  split; [reflexivity|split; [apply remove_task_self|]]. intros x Hx. rewrite remove_task_spec. tauto.
Qed.
Theorem va_not_running_is_silent st t r : ~ In t (s_running st) -> on_start_done st t r = (st, []).
Proof.
  intro H. unfold on_start_done. destruct (mem t (s_running st)) eqn:E; [|reflexivity]. apply mem_in in E. contradiction.
Qed.
Theorem va_unsub_cancels_latest st a n t : s_kind st = SubVa a n -> s_latest st = Some t -> In t (s_running st) ->
  snd (on_unsub st) = [OWrite WVaUnsub; OCancelStart t] /\ ~ In t (s_running (fst (on_unsub st))) /\ s_live (fst (on_unsub st)) = false.
Proof.
  intros Hk Hl Hi. unfold on_unsub. rewrite Hk, Hl. apply mem_in in Hi. rewrite Hi. cbn.
  split; [reflexivity|split; [apply remove_task_self|reflexivity]].
Qed.

Theorem other_id_ignored st e :
  match e with SUnsub id | SStartDone id _ _ => id <> s_id st | SSubscribe _ _ => True | SMsg _ => False end ->
  sub_step st e = (st, []).
Proof.
  destruct e; cbn [sub_step]; intro H; try contradiction; try reflexivity;
    apply PeanoNat.Nat.eqb_neq in H; rewrite H; reflexivity.
Qed.
