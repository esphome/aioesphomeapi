(* C03 / C04: the Noise frame helper (Model/NoiseFrame.v) - segmentation independence for ALL byte streams, and the
   behaviour on framed streams (honest and adversarial) under an ideal AEAD given as section hypotheses. *)
From Coq Require Import NArith List Bool Lia Arith.
From Verif Require Import Model.NoiseFrame Proofs.ListFacts.
Import ListNotations.
Open Scope N_scope.

Section Proofs.
  Variable decrypt : N -> bytes -> option bytes.
  Variable hs_read : bytes -> bool.
  Variable utf8_ok : bytes -> bool.
  Variable expected_name : option bytes.

  Notation loop := (loop decrypt hs_read utf8_ok expected_name).
  Notation data_received := (data_received decrypt hs_read utf8_ok expected_name).

  Lemma set_buffer_buffer s b : s_buffer (set_buffer s b) = b. Proof. reflexivity. Qed.

  (* every field but the buffer *)
  Definition core (s : st) := (s_state s, s_dec_nonce s, s_enc_nonce s, s_ready s, s_transport s).
  Lemma core_set_buffer s b : core (set_buffer s b) = core s. Proof. reflexivity. Qed.

  Definition prepend (acc : list nevent) (r : result) : result :=
    {| r_st := r_st r; r_events := acc ++ r_events r; r_status := r_status r |}.
  Lemma prepend_app a b r : prepend (a ++ b) r = prepend a (prepend b r).
  Proof. unfold prepend. cbn [r_st r_events r_status]. rewrite app_assoc. reflexivity. Qed.

  Definition dispatch (s : st) (frame : bytes) : st * list nevent * option nraise :=
    match s_state s with
    | NReady => handle_frame decrypt s frame
    | NHello => handle_hello utf8_ok expected_name s frame
    | NHandshake => handle_handshake hs_read utf8_ok s frame
    | NClosed => handle_closed s
    end.

  Definition ready_events (s : st) (e : nerr) : list nevent :=
    match s_ready s with RPending => [NReadyErr e] | RDone => [] end.

  Lemma handle_error_spec s e : handle_error s e = (set_ready s RDone, ready_events s e ++ [NFatal e]).
  Proof. destruct s as [stt buf dn en [|] tr]; reflexivity. Qed.

  Lemma hec_spec s e :
    handle_error_and_close s e =
    (set_transport (set_state (set_ready s RDone) NClosed) false,
     ready_events s e ++ NFatal e :: (if s_transport s then [NTransportClose] else [])).
  Proof. destruct s as [stt buf dn en [|] [|]]; reflexivity. Qed.

  (* the way every handler reports a protocol error *)
  Lemma fail_buf s e b :
    (let '(s1, ev) := handle_error_and_close (set_buffer s b) e in (s1, ev, @None nraise)) =
    let '(s1, ev, ex) := (let '(s1, ev) := handle_error_and_close s e in (s1, ev, @None nraise)) in (set_buffer s1 b, ev, ex).
  Proof. rewrite !hec_spec. reflexivity. Qed.

  (* a handler branches on the frame and the oracles only; at each leaf it updates fields other than the buffer, or reports an error *)
  Lemma dispatch_buf s frame b :
    dispatch (set_buffer s b) frame =
    let '(s1, ev, ex) := dispatch s frame in (set_buffer s1 b, ev, ex).
  Proof.
    unfold dispatch. cbn [s_state set_buffer]. destruct (s_state s).
    - unfold handle_hello. destruct frame as [|p rest]; [apply fail_buf|].
      destruct (negb (p =? 1)); [apply fail_buf|].
      destruct (take_until_nul rest) as [name0|]; [|reflexivity]. cbn zeta.
      destruct expected_name as [en|]; [|reflexivity].
      destruct (bytes_eqb en _); [reflexivity|apply fail_buf].
    - unfold handle_handshake. destruct frame as [|b0 rest]; [apply fail_buf|].
      destruct (negb (b0 =? 0)); [cbn zeta; destruct (bytes_eqb _ MAC_FAILURE); apply fail_buf|].
      destruct (hs_read rest); reflexivity.
    - unfold handle_frame. cbn [s_dec_nonce set_buffer].
      destruct (decrypt (s_dec_nonce s) frame) as [[|t_hi [|t_lo r]]|]; reflexivity.
    - unfold handle_closed. rewrite !handle_error_spec. reflexivity.
  Qed.

  Inductive front := FIncomplete | FBadMarker (b : N) | FFrame (frame rest : bytes).
  Definition front_of (buf : bytes) : front :=
    match buf with
    | b0 :: b1 :: b2 :: body =>
      if negb (b0 =? 1) then FBadMarker b0
      else if Nat.ltb (length body) (N.to_nat (be16 b1 b2)) then FIncomplete
      else FFrame (firstn (N.to_nat (be16 b1 b2)) body) (skipn (N.to_nat (be16 b1 b2)) body)
    | _ => FIncomplete
    end.

  Lemma loop_S f s acc :
    loop (S f) s acc =
    match front_of (s_buffer s) with
    | FIncomplete => {| r_st := s; r_events := acc; r_status := Ok |}
    | FBadMarker b =>
      let '(s1, ev) := handle_error_and_close s (EBadMarker b) in
      {| r_st := s1; r_events := acc ++ ev; r_status := Stopped |}
    | FFrame frame rest =>
      let '(s1, ev, ex) := dispatch s frame in
      match ex with
      | Some r => {| r_st := s1; r_events := acc ++ ev ++ [NRaise r]; r_status := Raised r |}
      | None => loop f (set_buffer s1 rest) (acc ++ ev)
      end
    end.
  Proof.
    cbn [loop]. unfold front_of, dispatch. destruct (s_buffer s) as [|b0 [|b1 [|b2 body]]]; try reflexivity.
    destruct (negb (b0 =? 1)); [reflexivity|]. cbn zeta. destruct (Nat.ltb _ _); reflexivity.
  Qed.

  Lemma front_of_shorter buf fr rest : front_of buf = FFrame fr rest -> (length rest < length buf)%nat.
  Proof.
    unfold front_of. destruct buf as [|b0 [|b1 [|b2 body]]]; try discriminate.
    destruct (negb _); [discriminate|]. destruct (Nat.ltb _ _); [discriminate|].
    intros [= <- <-]. rewrite skipn_length. cbn [length]. lia.
  Qed.

  Lemma front_of_app B C : front_of B <> FIncomplete ->
    front_of (B ++ C) = match front_of B with FFrame fr rest => FFrame fr (rest ++ C) | x => x end.
  Proof.
    unfold front_of. destruct B as [|b0 [|b1 [|b2 body]]]; try contradiction. cbn [app].
    destruct (negb (b0 =? 1)); [reflexivity|].
    destruct (Nat.ltb_spec (length body) (N.to_nat (be16 b1 b2))) as [L|L]; [contradiction|]. intros _.
    rewrite ltb_length_app_le, firstn_app_le, skipn_app_le by exact L. reflexivity.
  Qed.

  Lemma loop_fuel f : forall g s acc,
    (length (s_buffer s) < f)%nat -> (length (s_buffer s) < g)%nat -> loop f s acc = loop g s acc.
  Proof.
    induction f as [|f IH]; intros [|g] s acc Hf Hg; try lia.
    rewrite !loop_S. destruct (front_of (s_buffer s)) as [|b|fr rest] eqn:E; try reflexivity.
    apply front_of_shorter in E.
    destruct (dispatch s fr) as [[s1 ev] [x|]]; [reflexivity|]. apply IH; cbn [s_buffer set_buffer]; lia.
  Qed.

  Lemma loop_acc f : forall s acc, loop f s acc = prepend acc (loop f s []).
  Proof.
    induction f as [|f IH]; intros s acc; [unfold prepend; cbn; rewrite app_nil_r; reflexivity|].
    rewrite !loop_S. destruct (front_of (s_buffer s)) as [|b|fr rest].
    - unfold prepend. cbn. rewrite app_nil_r. reflexivity.
    - destruct (handle_error_and_close s (EBadMarker b)). reflexivity.
    - destruct (dispatch s fr) as [[s1 ev] [x|]]; [reflexivity|].
      rewrite (IH _ (acc ++ ev)), (IH _ ([] ++ ev)). apply prepend_app.
  Qed.

  (* what a call that ended in r would have done had the bytes C been there as well: after a normal end it goes on as a
     second call with C does; a marker error or an exception comes before C is looked at *)
  Definition resume (C : bytes) (r : result) : result :=
    match r_status r with
    | Ok => prepend (r_events r) (data_received (r_st r) C)
    | x => {| r_st := set_buffer (r_st r) (s_buffer (r_st r) ++ C); r_events := r_events r; r_status := x |}
    end.

  Lemma loop_extend f : forall s B acc C, (length B < f)%nat ->
    loop (f + length C) (set_buffer s (B ++ C)) acc = resume C (loop f (set_buffer s B) acc).
  Proof.
    induction f as [|f IH]; intros s B acc C Hf; [lia|].
    rewrite (loop_S f), set_buffer_buffer. destruct (front_of B) as [|b|fr rest] eqn:E.
    - unfold resume, data_received. cbn [r_status r_st r_events s_buffer set_buffer].
      rewrite <- loop_acc. apply loop_fuel; cbn [s_buffer set_buffer]; rewrite app_length; lia.
    - cbn [plus]. rewrite loop_S, set_buffer_buffer, front_of_app, E, !hec_spec by (rewrite E; discriminate).
      reflexivity.
    - cbn [plus]. rewrite loop_S, set_buffer_buffer, front_of_app, E, !dispatch_buf by (rewrite E; discriminate).
      destruct (dispatch s fr) as [[s1 ev] [x|]]; [reflexivity|].
      apply (IH s1). apply front_of_shorter in E. lia.
  Qed.

  Lemma data_received_app s a b : data_received s (a ++ b) = resume b (data_received s a).
  Proof.
    unfold data_received at 1 2. rewrite app_assoc, <- loop_extend by lia.
    apply loop_fuel; cbn [s_buffer set_buffer]; rewrite !app_length; lia.
  Qed.

  Fixpoint feed (s : st) (chunks : list bytes) : list nevent * st * status :=
    match chunks with
    | [] => ([], s, Ok)
    | c :: cs =>
      let r := data_received s c in
      match r_status r with
      | Ok => let '(ev, s', x) := feed (r_st r) cs in (r_events r ++ ev, s', x)
      | x => (r_events r, r_st r, x)
      end
    end.

  Lemma feed_cons s c cs :
    feed s (c :: cs) =
    match r_status (data_received s c) with
    | Ok => let '(ev, s', x) := feed (r_st (data_received s c)) cs in (r_events (data_received s c) ++ ev, s', x)
    | x => (r_events (data_received s c), r_st (data_received s c), x)
    end.
  Proof. reflexivity. Qed.

  Theorem segmentation_independent cs : forall s c,
    let '(ev, s', x) := feed s (c :: cs) in
    let r := data_received s (concat (c :: cs)) in
    r_events r = ev /\ r_status r = x /\ core (r_st r) = core s' /\ (x = Ok -> r_st r = s').
  Proof.
    induction cs as [|c2 cs IH]; intros s c; rewrite feed_cons.
    - cbn [feed concat]. rewrite (app_nil_r c).
      destruct (data_received s c) as [s1 ev [| | |]]; cbn [r_status r_events r_st]; rewrite ?app_nil_r; auto.
    - change (concat (c :: c2 :: cs)) with (c ++ concat (c2 :: cs)). rewrite data_received_app. unfold resume.
      (* unless the call on c ends Ok, both sides end with it, and the last conjunct holds for want of its premise *)
      destruct (data_received s c) as [s1 ev [| | |]]; cbn [r_status r_events r_st];
        [|rewrite core_set_buffer; do 3 (split; [reflexivity|]); discriminate ..].
      specialize (IH s1 c2). destruct (feed s1 (c2 :: cs)) as [[ev' s'] x].
      destruct IH as (I1 & I2 & I3 & I4). cbn [prepend r_events r_status r_st]. rewrite I1. auto.
  Qed.

  Definition short (body : bytes) : Prop := N.of_nat (length body) < 65536.
  Definition frame_bytes (body : bytes) : bytes :=
    [1; hi8 (N.of_nat (length body)); lo8 (N.of_nat (length body))] ++ body.

  Lemma be16_hi_lo v : v < 65536 -> be16 (hi8 v) (lo8 v) = v.
  Proof.
    intro H. unfold be16, hi8, lo8. change 255 with (N.ones 8).
    rewrite (N.land_ones (N.shiftr v 8)), N.mod_small.
    - rewrite <- N.ldiff_ones_r. apply N.lor_ldiff_and.
    - rewrite N.shiftr_div_pow2. apply N.div_lt_upper_bound; [discriminate|exact H].
  Qed.

  Lemma front_of_frame body rest : short body -> front_of (frame_bytes body ++ rest) = FFrame body rest.
  Proof.
    intro Hb. unfold front_of, frame_bytes. cbn [app N.eqb Pos.eqb negb].
    rewrite be16_hi_lo by exact Hb. rewrite Nnat.Nat2N.id, ltb_length_app, firstn_app_exact, skipn_app_exact. reflexivity.
  Qed.

  Fixpoint process (s : st) (fs : list bytes) (acc : list nevent) : result :=
    match fs with
    | [] => {| r_st := s; r_events := acc; r_status := Ok |}
    | f :: r =>
      let '(s1, ev, ex) := dispatch s f in
      match ex with
      | Some x => {| r_st := s1; r_events := acc ++ ev ++ [NRaise x]; r_status := Raised x |}
      | None => process s1 r (acc ++ ev)
      end
    end.

  Lemma process_cons s f r acc :
    process s (f :: r) acc =
    let '(s1, ev, ex) := dispatch s f in
    match ex with
    | Some x => {| r_st := s1; r_events := acc ++ ev ++ [NRaise x]; r_status := Raised x |}
    | None => process s1 r (acc ++ ev)
    end.
  Proof. reflexivity. Qed.

  Lemma process_acc fs : forall s acc, process s fs acc = prepend acc (process s fs []).
  Proof.
    induction fs as [|f fs IH]; intros s acc; [unfold prepend; cbn; rewrite app_nil_r; reflexivity|].
    rewrite !process_cons. destruct (dispatch s f) as [[s1 ev] [x|]]; [reflexivity|].
    rewrite (IH _ (acc ++ ev)), (IH _ ([] ++ ev)). apply prepend_app.
  Qed.

  Lemma loop_frames fs : forall s acc f,
    Forall short fs -> (length (flat_map frame_bytes fs) < f)%nat ->
    let r := loop f (set_buffer s (flat_map frame_bytes fs)) acc in
    let p := process s fs acc in
    r_events r = r_events p /\ r_status r = r_status p /\ core (r_st r) = core (r_st p).
  Proof.
    induction fs as [|body fs IH]; intros s acc [|f] Hs Hf; try (cbn in Hf; lia).
    - cbn. auto.
    - inversion Hs as [|? ? Hb Hs']; subst.
      cbn [flat_map]. rewrite process_cons, loop_S, set_buffer_buffer, (front_of_frame _ _ Hb), dispatch_buf.
      destruct (dispatch s body) as [[s1 ev] [x|]]; [cbn; auto|].
      apply (IH s1); [exact Hs'|].
      cbn [flat_map] in Hf. unfold frame_bytes in Hf at 1. rewrite !app_length in Hf. cbn [length] in Hf. lia.
  Qed.

  Theorem data_received_frames s fs :
    s_buffer s = [] -> Forall short fs ->
    let r := data_received s (flat_map frame_bytes fs) in
    let p := process s fs [] in
    r_events r = r_events p /\ r_status r = r_status p /\ core (r_st r) = core (r_st p).
  Proof.
    intros Hb Hs. unfold data_received. rewrite Hb. cbn [app].
    apply loop_frames; [exact Hs|apply Nat.lt_succ_diag_r].
  Qed.
End Proofs.

(* an ideal AEAD: what decrypts under nonce n is what the device sent under nonce n *)
Section Ideal.
  Variable decrypt : N -> bytes -> option bytes.
  Variable hs_read : bytes -> bool.
  Variable utf8_ok : bytes -> bool.
  Variable expected_name : option bytes.
  Variable enc : N -> bytes -> bytes.            (* the device's encryption *)
  Variable sent : list bytes.                    (* plaintexts the device really sent, in nonce order from 0 *)
  Hypothesis dec_enc : forall n p, decrypt n (enc n p) = Some p.
  Hypothesis authentic : forall n c p, decrypt n c = Some p -> nth_error sent (N.to_nat n) = Some p.

  Notation process := (process decrypt hs_read utf8_ok expected_name).
  Notation disp := (dispatch decrypt hs_read utf8_ok expected_name).

  Definition deliveries (evs : list nevent) : list (N * bytes) :=
    flat_map (fun e => match e with NDeliver ty pl => [(ty, pl)] | _ => [] end) evs.
  Lemma deliveries_app a b : deliveries (a ++ b) = deliveries a ++ deliveries b.
  Proof. apply flat_map_app. Qed.

  (* how a plaintext is handed over: 16-bit type, payload after the 4-byte inner header *)
  Definition handed (p : bytes) : list (N * bytes) :=
    match p with t_hi :: t_lo :: _ => [(be16 t_hi t_lo, skipn 4 p)] | _ => [] end.

  Lemma ready_frame s f p :
    s_state s = NReady -> decrypt (s_dec_nonce s) f = Some p ->
    disp s f =
    match p with
    | t_hi :: t_lo :: _ => (set_dec s (s_dec_nonce s + 1), [NDeliver (be16 t_hi t_lo) (skipn 4 p)], None)
    | _ => (set_dec s (s_dec_nonce s + 1), [], Some RIndexError)
    end.
  Proof. intros Hr Hd. unfold dispatch. rewrite Hr. unfold handle_frame. rewrite Hd. reflexivity. Qed.

  Lemma ready_frame_handed s f p :
    s_state s = NReady -> decrypt (s_dec_nonce s) f = Some p ->
    exists ev ex, disp s f = (set_dec s (s_dec_nonce s + 1), ev, ex) /\ deliveries ev = handed p.
  Proof.
    intros Hr Hd. rewrite (ready_frame s f p Hr Hd).
    destruct p as [|t_hi [|t_lo rest]]; eexists; eexists; split; reflexivity.
  Qed.

  (* C04 (2): a frame that does not authenticate raises InvalidTag out of data_received; the transport then reports it
     through connection_lost, where it is rewritten to the invalid-encryption-key error (session level below) *)
  Theorem bad_data_frame s f :
    s_state s = NReady -> decrypt (s_dec_nonce s) f = None -> disp s f = (s, [], Some RInvalidTag).
  Proof. intros Hr Hd. unfold dispatch. rewrite Hr. unfold handle_frame. rewrite Hd. reflexivity. Qed.

  (* C04 (1): in the data phase, for EVERY sequence of frames the adversary puts on the wire, what is delivered is a
     prefix of what the device really sent under the consecutive nonces k, k+1, ... - nothing altered, forged, replayed,
     reordered or following a deviation *)
  Theorem data_phase_prefix_only fs : forall s acc,
    s_state s = NReady ->
    exists j, (j <= length fs)%nat /\
      deliveries (r_events (process s fs acc)) =
      deliveries acc ++ flat_map handed (firstn j (skipn (N.to_nat (s_dec_nonce s)) sent)).
  Proof.
    induction fs as [|f fs IH]; intros s acc Hr.
    - exists 0%nat. cbn. rewrite app_nil_r. auto.
    - rewrite process_cons. destruct (decrypt (s_dec_nonce s) f) as [p|] eqn:Ed.
      + (* whatever decrypts under this nonce is the next plaintext the device sent *)
        pose proof (skipn_nth_cons _ _ _ (authentic _ _ _ Ed)) as Hs.
        destruct (ready_frame_handed s f p Hr Ed) as (ev & [x|] & -> & Hev).
        * exists 1%nat. split; [cbn; lia|]. rewrite Hs. cbn [r_events firstn flat_map].
          rewrite !deliveries_app, Hev. reflexivity.
        * destruct (IH (set_dec s (s_dec_nonce s + 1)) (acc ++ ev) Hr) as (j & Hj & E).
          exists (S j). split; [cbn; lia|]. rewrite E, Hs, deliveries_app, Hev, <- app_assoc.
          cbn [s_dec_nonce set_dec]. replace (N.to_nat (s_dec_nonce s + 1)) with (S (N.to_nat (s_dec_nonce s))) by lia.
          reflexivity.
      + rewrite (bad_data_frame s f Hr Ed). exists 0%nat. split; [lia|].
        cbn [r_events firstn flat_map]. rewrite deliveries_app. reflexivity.
  Qed.

  Fixpoint enc_from (k : N) (pts : list bytes) : list bytes :=
    match pts with [] => [] | p :: r => enc k p :: enc_from (k + 1) r end.
  (* a plaintext that holds the two bytes of its type: handle_frame raises IndexError on a shorter one *)
  Definition wellformed (p : bytes) : Prop := (2 <= length p)%nat.

  Lemma honest_data_phase pts : forall s,
    s_state s = NReady -> Forall wellformed pts ->
    let r := process s (enc_from (s_dec_nonce s) pts) [] in
    r_status r = Ok /\ r_events r = map (fun p => NDeliver (be16 (nth 0 p 0) (nth 1 p 0)) (skipn 4 p)) pts /\
    s_state (r_st r) = NReady.
  Proof.
    induction pts as [|p pts IH]; intros s Hr Hw; [cbn; auto|].
    inversion Hw as [|? ? Hp Hw']; subst. cbn [enc_from]. rewrite process_cons, (ready_frame s _ p Hr (dec_enc _ _)).
    destruct p as [|t_hi [|t_lo rest]]; try (unfold wellformed in Hp; cbn in Hp; lia).
    rewrite process_acc. specialize (IH (set_dec s (s_dec_nonce s + 1)) Hr Hw'). cbn [s_dec_nonce set_dec] in IH.
    destruct IH as (Hok & Hev & Hst). cbv zeta. cbn [prepend r_status r_events r_st]. rewrite Hev. auto.
  Qed.

  (* the name rule of handle_hello *)
  Definition accepts (announced : option bytes) : bool :=
    match expected_name, announced with
    | Some en, Some name => bytes_eqb en name
    | _, _ => true
    end.

  Definition harmless (e : nevent) : Prop := match e with NDeliver _ _ | NReadyOk => False | _ => True end.

  Lemma closed_silent fs : forall s, s_state s = NClosed -> Forall harmless (r_events (process s fs [])).
  Proof.
    induction fs as [|f fs IH]; intros s Hc; [constructor|].
    rewrite process_cons. unfold dispatch. rewrite Hc. unfold handle_closed. rewrite handle_error_spec, process_acc.
    apply Forall_app. split; [|apply IH, Hc].
    unfold ready_events. destruct (s_ready s); repeat constructor.
  Qed.

  Lemma hec_pending s e : s_ready s = RPending ->
    exists s1 rest, handle_error_and_close s e = (s1, NReadyErr e :: NFatal e :: rest) /\
      s_state s1 = NClosed /\ Forall harmless rest.
  Proof.
    intro Hp. rewrite hec_spec. unfold ready_events. rewrite Hp.
    eexists. eexists. split; [reflexivity|]. split; [reflexivity|]. destruct (s_transport s); repeat constructor.
  Qed.

  Lemma handshake_ok s1 hs_msg :
    s_state s1 = NHandshake -> hs_read hs_msg = true ->
    disp s1 (0 :: hs_msg) = (set_ready (set_enc (set_dec (set_state s1 NReady) 0) 0) RDone, [NReadyOk], None).
  Proof. intros H1 Hh. unfold dispatch. rewrite H1. unfold handle_handshake. cbn [N.eqb negb]. rewrite Hh. reflexivity. Qed.

  (* the server hello: protocol byte 1, optionally followed by a NUL-terminated name (and more) *)
  Lemma hello_step s0 hello_tail :
    s_state s0 = NHello ->
    disp s0 (1 :: hello_tail) =
    match take_until_nul hello_tail with
    | Some name0 =>
      let name := if utf8_ok name0 then name0 else [65533] in
      match expected_name with
      | Some en => if bytes_eqb en name then (set_state s0 NHandshake, [], None)
                   else let '(s1, ev) := handle_error_and_close s0 (EBadName name) in (s1, ev, None)
      | None => (set_state s0 NHandshake, [], None)
      end
    | None => (set_state s0 NHandshake, [], None)
    end.
  Proof. intro Hs. unfold dispatch. rewrite Hs. reflexivity. Qed.

  (* C03: an honest responder *)
  Theorem honest_session (announced : option bytes) (hello_tail hs_msg : bytes) (pts : list bytes) s0 :
    s_state s0 = NHello -> s_ready s0 = RPending ->
    take_until_nul hello_tail = announced ->
    (forall name, announced = Some name -> utf8_ok name = true) ->
    hs_read hs_msg = true -> Forall wellformed pts ->
    let r := process s0 ((1 :: hello_tail) :: (0 :: hs_msg) :: enc_from 0 pts) [] in
    if accepts announced then
      r_status r = Ok /\
      r_events r = NReadyOk :: map (fun p => NDeliver (be16 (nth 0 p 0) (nth 1 p 0)) (skipn 4 p)) pts /\
      s_state (r_st r) = NReady
    else
      exists name rest, announced = Some name /\
        r_events r = NReadyErr (EBadName name) :: NFatal (EBadName name) :: rest /\ Forall harmless rest.
  Proof.
    intros Hs Hrd Hn Hu Hh Hw. cbn zeta. rewrite process_cons. rewrite (hello_step s0 hello_tail Hs). rewrite Hn. unfold accepts.
    assert (Ready : forall s1, s_state s1 = NHandshake ->
              let r := process s1 ((0 :: hs_msg) :: enc_from 0 pts) [] in
              r_status r = Ok /\ r_events r = NReadyOk :: map (fun p => NDeliver (be16 (nth 0 p 0) (nth 1 p 0)) (skipn 4 p)) pts /\ s_state (r_st r) = NReady).
    { intros s1 H1. cbv zeta. rewrite process_cons, (handshake_ok s1 hs_msg H1 Hh), process_acc.
      pose proof (honest_data_phase pts (set_ready (set_enc (set_dec (set_state s1 NReady) 0) 0) RDone) eq_refl Hw) as K.
      cbn [s_dec_nonce set_ready set_enc set_dec] in K. destruct K as (Kok & Kev & Kst).
      cbn [prepend r_status r_events r_st]. rewrite Kev. auto. }
    (* expected_name is a variable of this section: the case analysis on it below rewrites the goal and the hypotheses
       but no lemma of the section, and none would fit the goal afterwards; hence Ready above and Silent *)
    pose proof closed_silent as Silent.
    destruct announced as [name|]; [|destruct expected_name; apply Ready; reflexivity].
    cbn zeta. rewrite (Hu name eq_refl). destruct expected_name as [en|]; [|apply Ready; reflexivity].
    destruct (bytes_eqb en name); [apply Ready; reflexivity|].
    destruct (hec_pending s0 (EBadName name) Hrd) as (s1 & rest & -> & Hc & Hrest).
    rewrite process_acc. exists name. eexists. split; [reflexivity|]. split; [reflexivity|].
    apply Forall_app. split; [exact Hrest|apply Silent, Hc].
  Qed.

  (* C04 (3): the first deviating frame of the handshake phase, case by case *)
  Definition closes_with (e : nerr) (s : st) (r : st * list nevent * option nraise) : Prop :=
    let '(s1, ev, ex) := r in
    s_state s1 = NClosed /\ ex = None /\ In (NFatal e) ev /\ (s_ready s = RPending -> In (NReadyErr e) ev) /\ ~ In NReadyOk ev /\ deliveries ev = [].

  Lemma hec_closes s e : closes_with e s (let '(s1, ev) := handle_error_and_close s e in (s1, ev, None)).
  Proof.
    rewrite hec_spec. unfold closes_with, ready_events.
    split; [reflexivity|]. split; [reflexivity|]. split; [apply in_or_app; right; left; reflexivity|].
    split; [intros ->; left; reflexivity|].
    destruct (s_ready s), (s_transport s); cbn; intuition discriminate.
  Qed.

  Theorem hello_empty s : s_state s = NHello -> closes_with EEmptyHello s (disp s []).
  Proof. intro H. unfold dispatch. rewrite H. cbn [handle_hello]. apply hec_closes. Qed.
  Theorem hello_unknown_protocol s p rest :
    s_state s = NHello -> p <> 1 -> closes_with (EUnknownProto p) s (disp s (p :: rest)).
  Proof.
    intros H Hp. unfold dispatch. rewrite H. cbn [handle_hello]. apply N.eqb_neq in Hp. rewrite Hp. cbn [negb]. apply hec_closes.
  Qed.
  Theorem hello_bad_name s rest name en :
    s_state s = NHello -> take_until_nul rest = Some name -> utf8_ok name = true ->
    expected_name = Some en -> bytes_eqb en name = false -> closes_with (EBadName name) s (disp s (1 :: rest)).
  Proof. intros H Hn Hu He Hb. rewrite (hello_step s rest H), Hn. cbn zeta. rewrite Hu, He, Hb. apply hec_closes. Qed.
  Theorem handshake_empty s : s_state s = NHandshake -> closes_with EEmptyHandshake s (disp s []).
  Proof. intro H. unfold dispatch. rewrite H. cbn [handle_handshake]. apply hec_closes. Qed.
  (* a handshake frame whose first byte is not 0 carries the device's explanation of its refusal *)
  Lemma handshake_refused s b text :
    s_state s = NHandshake -> b <> 0 -> utf8_ok text = true ->
    disp s (b :: text) =
    let '(s1, ev) := handle_error_and_close s (if bytes_eqb text MAC_FAILURE then EInvalidKey else EHandshakeFail text) in
    (s1, ev, None).
  Proof.
    intros H Hb Hu. unfold dispatch. rewrite H. cbn [handle_handshake]. apply N.eqb_neq in Hb. rewrite Hb. cbn [negb]. cbn zeta.
    rewrite Hu. destruct (bytes_eqb text MAC_FAILURE); reflexivity.
  Qed.
  Theorem handshake_mac_failure s b :
    s_state s = NHandshake -> b <> 0 -> utf8_ok MAC_FAILURE = true -> closes_with EInvalidKey s (disp s (b :: MAC_FAILURE)).
  Proof.
    intros H Hb Hu. rewrite (handshake_refused s b MAC_FAILURE H Hb Hu).
    assert (E : bytes_eqb MAC_FAILURE MAC_FAILURE = true) by reflexivity. rewrite E. apply hec_closes.
  Qed.
  Theorem handshake_other_failure s b text :
    s_state s = NHandshake -> b <> 0 -> utf8_ok text = true -> bytes_eqb text MAC_FAILURE = false ->
    closes_with (EHandshakeFail text) s (disp s (b :: text)).
  Proof. intros H Hb Hu Hm. rewrite (handshake_refused s b text H Hb Hu), Hm. apply hec_closes. Qed.
  Theorem handshake_wrong_key s msg :
    s_state s = NHandshake -> hs_read msg = false -> disp s (0 :: msg) = (s, [], Some RInvalidTag).
  Proof. intros H Hr. unfold dispatch. rewrite H. cbn [handle_handshake N.eqb negb]. rewrite Hr. reflexivity. Qed.
End Ideal.

(* The transport behaves as asyncio's: when an exception escapes data_received it is force-closed, hands the exception to
   connection_lost and delivers no more data. The connection closes the helper at the first fatal report. *)
Section SessionFacts.
  Variable encrypt : N -> bytes -> bytes.
  Variable decrypt : N -> bytes -> option bytes.
  Variable hs_init : bytes.
  Variable hs_read : bytes -> bool.
  Variable utf8_ok : bytes -> bool.
  Variable expected_name : option bytes.
  Notation sstep := (step encrypt decrypt hs_init hs_read utf8_ok expected_name).

  Theorem dead_transport_ignores x c : transport_dead x = true -> sstep x (OData c) = (x, []).
  Proof. intro H. cbn [step]. rewrite H. reflexivity. Qed.

  Lemma after_events_keeps x s evs :
    transport_dead (fst (after_events x s evs)) = transport_dead x /\ incl evs (snd (after_events x s evs)).
  Proof.
    unfold after_events. destruct (existsb is_fatal evs && negb (conn_closed x)).
    - (* the first fatal report: what closing the helper produces comes after evs *)
      destruct (close s). split; [reflexivity|apply incl_appl, incl_refl].
    - split; [reflexivity|apply incl_refl].
  Qed.

  Theorem raise_kills_transport x c r :
    transport_dead x = false -> s_transport (ss x) = true ->
    r_status (data_received decrypt hs_read utf8_ok expected_name (ss x) c) = Raised r ->
    transport_dead (fst (sstep x (OData c))) = true /\
    In (NFatal (match r with RInvalidTag => EInvalidKey | _ => ERawOther end)) (snd (sstep x (OData c))).
  Proof.
    intros Hd Ht Hr. cbn [step]. rewrite Hd, Ht, Hr. cbn [orb negb].
    destruct (after_events x _ _) as [x1 ev1].
    set (e := match r with RInvalidTag => EInvalidKey | _ => ERawOther end).
    replace (connection_lost (ss x1) (lost_of_raise r)) with (handle_error (ss x1) e) by (destruct r; reflexivity).
    rewrite handle_error_spec.
    destruct (after_events_keeps (mkSess (ss x1) (conn_closed x1) true) (set_ready (ss x1) RDone)
                                 (ready_events (ss x1) e ++ [NFatal e])) as [Hdead Hincl].
    destruct (after_events _ _ _) as [x2 ev3]. cbn [fst snd] in *. split; [exact Hdead|].
    apply in_or_app. right. apply Hincl, in_or_app. right. left. reflexivity.
  Qed.
End SessionFacts.

(* _decode_noise_psk: base64-decode (oracle: None = binascii error) and require exactly 32 bytes. In noise.py it is
   called from __init__ (through _setup_proto) and raises InvalidEncryptionKeyAPIError otherwise, so without a key that
   decodes there is no helper; the model has no constructor and says nothing of that. *)
Definition decode_psk (a2b : option bytes) : option bytes :=
  match a2b with Some k => if Nat.eqb (length k) 32 then Some k else None | None => None end.
Theorem psk_gate a2b : (exists k, decode_psk a2b = Some k) <-> (exists k, a2b = Some k /\ length k = 32%nat).
Proof.
  unfold decode_psk. split.
  - intros [k H]. destruct a2b as [k0|]; [|discriminate]. destruct (Nat.eqb_spec (length k0) 32); [|discriminate]. eauto.
  - intros [k [-> H]]. rewrite H. cbn. eauto.
Qed.
