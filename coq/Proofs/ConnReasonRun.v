(* C07, the argument of the stop callback, over whole runs: it is true only if a graceful disconnect was initiated earlier in the
   run (force_disconnect, disconnect(), or a DisconnectRequest frame from the device), and it is true whenever the
   expected-disconnect flag had been raised before the connection closed. *)
From Coq Require Import NArith ZArith List Bool Lia.
From RecordUpdate Require Import RecordSet.
From Verif Require Import Generated.GenConstants Model.Conn Proofs.ConnMoves Proofs.ConnCore Proofs.ConnSync Proofs.ConnStep Proofs.ConnStep2
  Proofs.ConnStep3 Proofs.ConnRun Proofs.ConnReason.
Import ListNotations RecordSetNotations.
Open Scope Z_scope.
Open Scope list_scope.

(* the registration invariant: once the handshake is complete the disconnect handler is in the table *)
Definition HD (c : conn) : Prop := handshake_complete c = true -> In (T_DISC_REQ, HDisc) (handlers c).

Lemma HD_G c c' : HD c -> G c c' -> HD c'.
Proof.
  intros H (_ & _ & K & S) Hc. destruct (S Hc) as [A|A]; [|exact A].
  destruct (K T_DISC_REQ HDisc eq_refl) as [K1 _]. auto.
Qed.
Lemma IHok_G c c' : IHok c -> G c c' -> IHok c'.
Proof. intros H (_ & _ & K & _). eapply IHok_IH; eassumption. Qed.

(* RI c: what a run of the connection carries along for this property: the invariant Inv, the internal handlers registered
   under their own message types only (ConnReason.IHok), and HD.  (ReconnectProofs.RI is about another machine.) *)
Definition RI (c : conn) : Prop := Inv c /\ IHok c /\ HD c.

Lemma RI_init n e ka scr : RI (init n e ka scr).
Proof.
  split; [apply Inv_init|]. split.
  - intros ty h _ H. destruct H.
  - intro H. discriminate H.
Qed.
Lemma RI_step c l c' o : RI c -> step c l = Some (c', o) -> RI c'.
Proof.
  intros (I & K & H) E. destruct (step_reason c l c' o I K E) as (G1 & _ & _).
  split; [exact (proj1 (step_ok _ _ _ _ E I))|]. split; [eapply IHok_G; eassumption|eapply HD_G; eassumption].
Qed.
Lemma RI_run ls : forall c c' os, RI c -> run c ls = Some (c', os) -> RI c'.
Proof. exact (run_invariant RI RI_step ls). Qed.
Lemma RI_reachable c : reachable c -> RI c.
Proof. intros (n & e & ka & scr & ls & os & E). eapply RI_run; [apply RI_init|exact E]. Qed.

Lemma run_reason ls : forall c c' os, RI c -> run c ls = Some (c', os) ->
  G c c' /\ (Forall (fun l => ~ initiates_now l) ls -> Kp c c') /\ (~ In LDisconnect ls -> PdNone c c').
Proof.
  induction ls as [|l ls IHl]; intros c c' os H E.
  - apply some_pair_inv in E. destruct E as [<- _]. split; [apply G_refl|]. split; [intros _; apply Kp_refl|intros _ Q; exact Q].
  - destruct (run_cons _ _ _ _ _ E) as (c1 & o & os2 & Es & Er & _).
    destruct H as (I & K & Hd).
    destruct (step_reason c l c1 o I K Es) as (G1 & K1 & P1).
    destruct (IHl c1 c' os2 (RI_step c l c1 o (conj I (conj K Hd)) Es) Er) as (G2 & K2 & P2).
    split; [eapply G_trans; eassumption|]. split.
    + intro F. inversion F as [|x xs Fx Fxs]; subst. eapply Kp_trans; [apply K1; exact Fx|apply K2; exact Fxs].
    + intros Hn Q. apply P2; [intro Hin; apply Hn; right; exact Hin|]. apply P1; [intros ->; apply Hn; left; reflexivity|exact Q].
Qed.

Definition initiates (l : label) : Prop :=
  l = LForce \/ l = LDisconnect \/ exists items m, l = LData items /\ In (DFrame m) items /\ m_ty m = T_DISC_REQ.

Definition is_disc_req (i : ditem) : bool := match i with DFrame m => N.eqb (m_ty m) T_DISC_REQ | _ => false end.
Definition initiates_nowb (l : label) : bool :=
  match l with
  | LForce | LDisconnect | LWake TDisc => true
  | LData items => existsb is_disc_req items
  | _ => false
  end.
Lemma has_disc_req_b items : existsb is_disc_req items = true <-> has_disc_req items.
Proof.
  unfold has_disc_req. rewrite existsb_exists. split.
  - intros ([m|r] & Hin & Hb); cbn in Hb; [|discriminate]. apply N.eqb_eq in Hb. eauto.
  - intros (m & Hin & Hm). exists (DFrame m). split; [exact Hin|]. cbn. apply N.eqb_eq. exact Hm.
Qed.
Lemma initiates_nowb_spec l : initiates_nowb l = true <-> initiates_now l.
Proof.
  destruct l; cbn [initiates_nowb initiates_now];
    try (split; [intro H; discriminate H|intros []]);
    try (split; [intros _; exact I|reflexivity]).
  - (* LData *) apply has_disc_req_b.
  - (* LWake *) destruct t; cbn [initiates_nowb initiates_now];
      try (split; [intro H; discriminate H|intros []]);
      try (split; [intros _; exact I|reflexivity]).
Qed.

Lemma label_is_disconnect l : l = LDisconnect \/ l <> LDisconnect.
Proof. destruct l; try (right; discriminate). left. reflexivity. Qed.

Lemma wake_disc_needs_disconnect ls : forall c c' os, RI c -> pc (t_disc c) = PNone -> run c ls = Some (c', os) ->
  In (LWake TDisc) ls -> In LDisconnect ls.
Proof.
  induction ls as [|l ls IHl]; intros c c' os H Hp E Hin; [destruct Hin|].
  destruct (run_cons _ _ _ _ _ E) as (c1 & o & os2 & Es & Er & _).
  destruct (label_is_disconnect l) as [->|Hn]; [left; reflexivity|]. right.
  destruct H as (I & K & Hd). destruct (step_reason c l c1 o I K Es) as (_ & _ & P1).
  destruct Hin as [->|Hin].
  - (* the first label is LWake TDisc: not enabled, the task has not started *)
    cbn [step] in Es. unfold wake_disc in Es. cbn [get_task] in Es. rewrite Hp in Es. discriminate.
  - (* later: the first label, not being LDisconnect, leaves the task unstarted *)
    eapply (IHl c1 c' os2); [eapply RI_step; [exact (conj I (conj K Hd))|exact Es]|apply P1; assumption|exact Er|exact Hin].
Qed.

Theorem true_only_if_initiated n e ka scr ls c os :
  run (init n e ka scr) ls = Some (c, os) -> In true (stop_calls c) -> exists l, In l ls /\ initiates l.
Proof.
  intros E Ht. pose proof (RI_init n e ka scr) as H0.
  destruct (existsb initiates_nowb ls) eqn:Ex.
  - apply existsb_exists in Ex. destruct Ex as (x & Hin & Hx). apply initiates_nowb_spec in Hx.
    destruct x; cbn [initiates_now] in Hx; try contradiction.
    + (* LDisconnect *) exists LDisconnect. split; [exact Hin|]. right. left. reflexivity.
    + (* LForce *) exists LForce. split; [exact Hin|]. left. reflexivity.
    + (* LData *) destruct Hx as (m & Hm & Hty). exists (LData items). split; [exact Hin|]. right. right. exists items, m. auto.
    + (* LWake TDisc: the task was started by an earlier disconnect() *)
      destruct t; try contradiction. exists LDisconnect. split; [|right; left; reflexivity].
      eapply wake_disc_needs_disconnect; [exact H0|reflexivity|exact E|exact Hin].
  - exfalso. destruct (run_reason ls _ _ _ H0 E) as (_ & K & _).
    assert (Hn : Forall (fun l => ~ initiates_now l) ls).
    { apply Forall_forall. intros l Hin Q. apply initiates_nowb_spec in Q.
      rewrite (proj2 (existsb_exists initiates_nowb ls) (ex_intro _ l (conj Hin Q))) in Ex. discriminate Ex. }
    specialize (K Hn). destruct K as [[_ (s & S1 & S2) _ _] _]. cbn in S1, S2. rewrite S1 in Ht.
    rewrite Forall_forall in S2. specialize (S2 true Ht). discriminate.
Qed.

(* positioned form: the initiation precedes (or is) the step in which the callback was called *)
Corollary true_only_if_initiated_before n e ka scr l1 l2 c1 os1 c os :
  run (init n e ka scr) (l1 ++ l2) = Some (c, os) -> run (init n e ka scr) l1 = Some (c1, os1) ->
  In true (stop_calls c1) -> exists l, In l l1 /\ initiates l.
Proof. intros _ E1 Ht. eapply true_only_if_initiated; eassumption. Qed.

Theorem flag_up_then_true c0 ls c os :
  RI c0 -> expected_disconnect c0 = true -> run c0 ls = Some (c, os) ->
  expected_disconnect c = true /\ exists suf, stop_calls c = stop_calls c0 ++ suf /\ Forall (eq true) suf.
Proof.
  intros H0 Hx E. destruct (run_reason ls _ _ _ H0 E) as (((s & S1 & S2 & _) & Gx & _) & _ & _).
  split; [auto|]. exists s. auto.
Qed.

(* so a callback called with false means the flag was down in every earlier state in which the callback had not been called yet *)
Theorem false_means_flag_never_up n e ka scr l1 l2 c1 os1 c os :
  run (init n e ka scr) (l1 ++ l2) = Some (c, os) -> run (init n e ka scr) l1 = Some (c1, os1) ->
  stop_calls c1 = [] -> In false (stop_calls c) -> expected_disconnect c1 = false.
Proof.
  intros E E1 Hs Hf. rewrite run_app, E1 in E.
  destruct (run c1 l2) as [[c2 os2]|] eqn:E2; [|discriminate]. apply some_pair_inv in E. destruct E as [<- _].
  destruct (expected_disconnect c1) eqn:Ex; [|reflexivity]. exfalso.
  assert (R1 : RI c1) by (eapply RI_run; [apply RI_init|exact E1]).
  destruct (flag_up_then_true c1 l2 c2 os2 R1 Ex E2) as (_ & s & S1 & S2). rewrite Hs in S1. cbn in S1. rewrite S1 in Hf.
  rewrite Forall_forall in S2. specialize (S2 false Hf). discriminate.
Qed.

(* force_disconnect raises the flag first: what follows is the same label taken from the state with the flag up *)
Theorem force_initiates c c' o : step c LForce = Some (c', o) -> Sets c c'.
Proof.
  intro E. apply Sets_raise_G. set (c1 := c <| expected_disconnect := true |>).
  assert (E1 : step c1 LForce = Some (c', o)) by (rewrite <- E; cbn [step]; unfold c1; rewrite raise_twice; reflexivity).
  exact (proj1 (RR_path LForce c1 o c' (step_path _ _ _ _ E1) (or_intror (fun Q => Q)))).
Qed.

Theorem disconnect_initiates c c' o : finish_fut c <> FPending -> step c LDisconnect = Some (c', o) -> Sets c c'.
Proof.
  cbn [step]. intros Hf E. destruct (pc (t_disc c)); try discriminate.
  destruct (finish_fut c); try contradiction.
  all: apply some_inj in E;
    match type of E with disconnect_after_wait ?x = _ =>
      pose proof (Sets_disconnect_after_wait LDisconnect x eq_refl) as H3; rewrite E in H3 end;
    cbn [fst] in H3; (eapply Sets_vw; [|exact H3]); reflexivity.
Qed.

Theorem disconnect_wait_over_initiates c c' o :
  pc (t_disc c) = PD_Wait -> must_cancel (t_disc c) = false -> step c (LWake TDisc) = Some (c', o) -> Sets c c'.
Proof.
  cbn [step]. unfold wake_disc. cbn [get_task]. intros Hp Hm E. rewrite Hp, Hm in E. cbn [orb] in E.
  destruct (disc_wait_done c); [|discriminate].
  unfold take_cancel in E. cbn [get_task] in E. rewrite Hm in E.
  apply some_inj in E.
  match type of E with disconnect_after_wait ?x = _ =>
    pose proof (Sets_disconnect_after_wait (LWake TDisc) x eq_refl) as H3; rewrite E in H3;
    assert (H4 : stop_calls x = stop_calls c) by (destruct (finish_fut (c <| disc_timer := None |>)); try reflexivity; destruct (fatal (c <| disc_timer := None |>)); reflexivity) end.
  cbn [fst] in H3. eapply Sets_vw; eassumption.
Qed.

Lemma disc_ne_ping : T_DISC_REQ <> T_PING_REQ. Proof. vm_compute. discriminate. Qed.
Lemma disc_ne_time : T_DISC_REQ <> T_TIME_REQ. Proof. vm_compute. discriminate. Qed.

Theorem disconnect_request_initiates c m rest c' o :
  RI c -> handshake_complete c = true ->
  m_ty m = T_DISC_REQ -> registered (m_ty m) = true -> m_valid m = true ->
  step c (LData (DFrame m :: rest)) = Some (c', o) -> Sets c c'.
Proof.
  intros (I & K & Hd) Hh Hty Hreg Hval E. cbn [step] in E.
  destruct (transport c); try discriminate. destruct (made c); try discriminate.
  assert (Hn : cs c <> Closed).
  { destruct I as ((_ & F2) & _). change (k_hs (core_of c)) with (handshake_complete c) in F2. change (k_cs (core_of c)) with (cs c) in F2.
    intro Q. rewrite Q, Hh in F2. discriminate. }
  cbn [data_loop] in E. rewrite (process_packet_open c m Hn Hreg Hval) in E.
  assert (Hs : Sets c (fst (fst (run_handlers (pp_reset c) (snapshot (pp_reset c) (m_ty m)) m)))).
  { apply (Sets_vw c (pp_reset c)); [reflexivity|]. apply Sets_run_handlers.
    - apply snapshot_in. rewrite Hty. exact (Hd Hh).
    - intro Q. apply snapshot_in in Q. apply (K (m_ty m) HPing eq_refl) in Q. rewrite Hty in Q. exact (disc_ne_ping Q).
    - intro Q. apply snapshot_in in Q. apply (K (m_ty m) HTime eq_refl) in Q. rewrite Hty in Q. exact (disc_ne_time Q). }
  destruct (run_handlers (pp_reset c) (snapshot (pp_reset c) (m_ty m)) m) as [[c1 o1] ex]. cbn [fst] in Hs.
  destruct ex as [e|].
  - apply some_pair_inv in E. destruct E as [<- _]. exact (Sets_G _ _ _ Hs (G_Kp _ _ (Kp_force_close c1 e))).
  - destruct (G_data_loop rest c1) as [HG _]. destruct (data_loop c1 rest) as [[c2 o2] ex2]. cbn [fst] in HG.
    pose proof (Sets_G c c1 c2 Hs HG) as S2.
    destruct ex2 as [e|]; apply some_pair_inv in E; destruct E as [<- _]; [|exact S2].
    exact (Sets_G _ _ _ S2 (G_Kp _ _ (Kp_force_close c2 e))).
Qed.

(* the registration invariant, for the record *)
Theorem disconnect_handler_registered c : reachable c -> handshake_complete c = true -> In (T_DISC_REQ, HDisc) (handlers c).
Proof. intros Hr. destruct (RI_reachable c Hr) as (_ & _ & H). exact H. Qed.
Theorem internal_handlers_typed c : reachable c -> forall ty h, internal h = true -> In (ty, h) (handlers c) -> ty = ty_of h.
Proof. intros Hr. destruct (RI_reachable c Hr) as (_ & H & _). exact H. Qed.
