(* A closed connection is silent: from a closed state no transition writes an application message,
   delivers to a subscriber or calls the stop callback, and the state stays closed.
   That the state stays closed holds of every single move (Proofs/ConnMoves.v), so it is carried along the path of a label.
   Silence is not a property of the moves: the move that calls the stop callback (AFire) is made from a state that is closed
   already, since _cleanup closes first and calls last, and nothing in a closed state tells that _cleanup will not make it
   again; and within one dispatch a handler may deliver (DDeliver) after an earlier handler of the same frame has closed the
   connection.  Silence is therefore proved function by function: from a closed state _cleanup only releases, send_messages
   refuses and process_packet drops the frame, and the wake-ups are followed as far as these. *)
From Coq Require Import NArith ZArith List Bool.
From RecordUpdate Require Import RecordSet.
From Verif Require Import Generated.GenConstants Model.Conn Proofs.ConnMoves Proofs.ConnCore.
Import ListNotations RecordSetNotations.
Open Scope Z_scope.
Open Scope list_scope.

(* loud: an observation the application would notice.  CL: the connection is closed, with both flags down. *)
Definition loud (x : obs) : bool :=
  match x with OWrite (_ :: _) | ODeliver _ _ | OStop _ => true | _ => false end.
Definition quietb (o : list obs) : bool := forallb (fun x => negb (loud x)) o.
Definition CL (c : conn) : Prop := cs c = Closed /\ handshake_complete c = false /\ is_connected c = false.
Definition QS (c : conn) (r : conn * list obs) : Prop := CL c -> CL (fst r) /\ quietb (snd r) = true.

Lemma quietb_app a b : quietb (a ++ b) = quietb a && quietb b.
Proof. apply forallb_app. Qed.

(* CL speaks of three components of ConnCore.shape_view *)
Lemma CL_same c c' : shape_view c' = shape_view c -> CL c -> CL c'.
Proof. unfold shape_view, CL. intro E. injection E as -> -> -> _ _. exact (fun H => H). Qed.

Lemma CL_add c ty h : CL c -> CL (add_handler c ty h).
Proof. apply CL_same, shape_view_add_handler. Qed.
Lemma CL_action c a : CL c -> CL (run_action c a).
Proof. destruct a; [apply CL_add|exact (fun H => H)]. Qed.
Lemma CL_set_task c t k : CL c -> CL (set_task c t k).
Proof. destruct t; exact (fun H => H). Qed.
Lemma CL_call_finally c cid : CL c -> CL (call_finally c cid).
Proof. apply CL_same, shape_view_call_finally. Qed.

Lemma CL_close c o c' : close_atom c o c' -> CL c -> CL c'.
Proof.
  destruct 1; try exact (fun H => H).
  (* ACloseState: only an open connection is closed *)
  intros (Q & _). contradiction.
Qed.

Lemma CL_data c o c' : data_atom c o c' -> CL c -> CL c'.
Proof.
  destruct 1 as [c o c' H| | |c a| |]; try exact (fun H => H).
  - (* DClose *) exact (CL_close c o c' H).
  - (* DAction *) apply CL_action.
Qed.

Lemma CL_step l c o c' : step_atom l c o c' -> CL c -> CL c'.
Proof.
  destruct 1; try exact (fun H => H);
    (* SSockOpen, SHsDone, SConnected: the three advances of the state are made from an open connection; SNewCall: a call is
       registered once the handshake is complete *)
    try (intros (Q1 & Q2 & _); congruence);
    lazymatch goal with
    | H : close_atom _ _ _ |- _ => exact (CL_close _ _ _ H)
    | H : data_atom _ _ _ |- _ => exact (CL_data _ _ _ H)
    | |- _ -> CL (call_finally _ _) => apply CL_call_finally
    | |- _ -> CL (set_task _ _ _) => (* STask, STaskDone, SUserCancel *) apply CL_set_task
    | |- _ -> CL (add_handler _ _ _) => apply CL_add
    end.
Qed.

Lemma CL_spath l c o c' : spath l c o c' -> CL c -> CL c'.
Proof. apply path_inv. exact (CL_step l). Qed.

Lemma CL_take_cancel c t : CL c -> CL (fst (take_cancel c t)).
Proof. exact (CL_spath _ _ _ _ (path_take_cancel (LWake t) c t eq_refl)). Qed.
Lemma CL_timeout_exit c t e : CL c -> CL (fst (timeout_exit c t e)).
Proof. exact (CL_spath _ _ _ _ (path_timeout_exit (LWake t) c t e eq_refl)). Qed.
Lemma CL_interrupt_exit c t e : CL c -> CL (fst (interrupt_exit c t e)).
Proof. exact (CL_spath _ _ _ _ (path_interrupt_exit (LWake t) c t e eq_refl)). Qed.

Lemma quiet_release c : quietb (snd (release_resources c)) = true.
Proof.
  assert (Q : quietb (snd (helper_close c)) = true) by (unfold helper_close; repeat dm; reflexivity).
  unfold release_resources. destruct (helper_close c) as [c' o]. cbn [snd] in Q.
  destruct (helper c); dm; cbn [snd]; rewrite ?quietb_app, ?Q; reflexivity.
Qed.

Lemma quiet_cleanup c : cs c = Closed -> quietb (snd (cleanup c)) = true.
Proof. intro H. rewrite (cleanup_closed c H). apply quiet_release. Qed.
Lemma quiet_report_fatal c e : cs c = Closed -> quietb (snd (report_fatal c e)) = true.
Proof. intro H. unfold report_fatal. destruct (fatal c); apply quiet_cleanup; exact H. Qed.
Lemma quiet_helper_error c e : cs c = Closed -> quietb (snd (helper_error c e)) = true.
Proof. intro H. unfold helper_error. destruct (ready c); apply quiet_report_fatal; exact H. Qed.

Lemma send_messages_closed c tys : CL c -> send_messages c tys = (c, [], Some (Lib LNotEstablished)).
Proof. intros (_ & H2 & _). unfold send_messages. rewrite H2. reflexivity. Qed.

Lemma call_begin_closed c owner send types ap st tmo :
  CL c -> call_begin c owner send types ap st tmo = (c, [], Some (Lib LNotEstablished), 0%nat).
Proof. intro H. unfold call_begin. rewrite (send_messages_closed c send H). reflexivity. Qed.

Lemma process_packet_closed c m : CL c -> process_packet c m = (c, [], None).
Proof. intros (H1 & _). unfold process_packet. rewrite H1. reflexivity. Qed.

Lemma quiet_data_loop items c : CL c -> quietb (snd (fst (data_loop c items))) = true.
Proof.
  intro H. induction items as [|[m|req] items IH]; cbn [data_loop]; [reflexivity| |].
  - rewrite (process_packet_closed c m H). destruct (data_loop c items) as [[c2 o2] ex2]. exact IH.
  - match goal with |- context [helper_error c ?e] => pose proof (quiet_helper_error c e (proj1 H)) as K; destruct (helper_error c e) end.
    exact K.
Qed.

(* the tail that ConnMoves.path_cleanup_finish follows, here from a closed state *)
Lemma quiet_tail c t (mk : conn -> tres) (post : conn -> conn) : cs c = Closed ->
  quietb (snd (let '(c2, o) := cleanup c in let '(c4, o2) := finish_task (post c2) t (mk c2) in (c4, o ++ o2))) = true.
Proof.
  intro H. pose proof (quiet_cleanup c H) as Q. destruct (cleanup c) as [c2 o]. unfold finish_task. cbn [snd] in *.
  rewrite quietb_app, Q. reflexivity.
Qed.

Lemma quiet_start_fail c e : CL c -> quietb (snd (start_fail c e)) = true.
Proof.
  intro H. unfold start_fail. pose proof (CL_interrupt_exit c TStart e H) as (H0 & _). destruct (interrupt_exit c TStart e) as [c0 e1].
  match goal with |- context [cleanup ?x] => exact (quiet_tail x TStart (fun c2 => TRaise (wrap_fatal c2 e1)) set_start_future H0) end.
Qed.

Lemma quiet_finish_fail c e : CL c -> quietb (snd (finish_fail c e)) = true.
Proof.
  intro H. unfold finish_fail. pose proof (CL_interrupt_exit c TFinish e H) as (H0 & _). destruct (interrupt_exit c TFinish e) as [c0 e1].
  match goal with |- context [cleanup ?x] => exact (quiet_tail x TFinish (fun c2 => TRaise (wrap_fatal c2 e1)) set_finish_future H0) end.
Qed.

Lemma quiet_start_success c : CL c -> quietb (snd (start_success c)) = true.
Proof.
  intros (H & _). unfold start_success.
  set (c2 := set_start_future _).
  assert (Q : cs c2 = Closed) by (unfold c2; rewrite cs_set_start_future; exact H).
  rewrite Q. exact (quiet_tail c2 TStart (fun c3 => TRaise (wrap_fatal c3 Interrupted)) (fun x => x) Q).
Qed.

Lemma quiet_finish_success c : CL c -> quietb (snd (finish_success c)) = true.
Proof.
  intros (H & _). unfold finish_success. set (c2 := set_finish_future _).
  assert (Q : cs c2 = Closed) by (unfold c2; rewrite cs_set_finish_future; exact H).
  rewrite Q. exact (quiet_tail c2 TFinish (fun c3 => TRaise (wrap_fatal c3 Interrupted)) (fun x => x) Q).
Qed.

Lemma quiet_finish_after_ready c : CL c -> quietb (snd (finish_after_ready c)) = true.
Proof.
  intro H. unfold finish_after_ready. change (cs (c <| hs_timer := None |>)) with (cs c). rewrite (proj1 H).
  apply quiet_finish_fail. exact H.
Qed.

Lemma quiet_disconnect_after_wait c : CL c -> quietb (snd (disconnect_after_wait c)) = true.
Proof.
  intros (H1 & H2 & _). unfold disconnect_after_wait.
  change (handshake_complete (c <| expected_disconnect := true |>)) with (handshake_complete c). rewrite H2.
  match goal with |- context [cleanup ?x] => exact (quiet_tail x TDisc (fun _ => TOk) (fun y => y) H1) end.
Qed.

Lemma quiet_wake_start c r : wake_start c = Some r -> CL c -> quietb (snd r) = true.
Proof.
  unfold wake_start. intros E H.
  destruct (pc (get_task c TStart)) as [| |g| | | | | | |]; try discriminate;
    (destruct (_ || _); [|discriminate]);
    pose proof (CL_take_cancel c TStart H) as H1; destruct (take_cancel c TStart) as [c1 mc]; cbn [fst] in H1;
    (match type of E with match ?d with _ => _ end = _ => destruct d as [|e] end);
    try (match type of E with context [timeout_exit ?x TStart ?e'] =>
           pose proof (CL_timeout_exit x TStart e' H1) as H2; destruct (timeout_exit x TStart e') as [c2 e1] end; cbn [fst] in H2).
  - (* resolved: the first TCP attempt *) apply some_inj in E. subst r. reflexivity.
  - (* resolving failed *) apply some_inj in E. subst r. apply quiet_start_fail, H2.
  - (* the TCP attempt succeeded *) apply some_inj in E. subst r. apply quiet_start_success, H1.
  - (* the TCP attempt failed: the next one, or the phase fails *)
    destruct (is_oserror e1); [destruct g as [|[|g']]|]; apply some_inj in E; subst r; try (apply quiet_start_fail, H2). reflexivity.
Qed.

Lemma quiet_wake_finish c r : wake_finish c = Some r -> CL c -> quietb (snd r) = true.
Proof.
  unfold wake_finish. intros E H.
  destruct (pc (get_task c TFinish)) as [| | | | |cid| | | |]; try discriminate;
    lazymatch type of E with   (* PF_Hello: the call exists *)
    | context [get_call _ ?x] => destruct (get_call c x) as [kk|]; [|discriminate]
    | _ => idtac
    end;
    (destruct (_ || _); [|discriminate]);
    pose proof (CL_take_cancel c TFinish H) as H1; destruct (take_cancel c TFinish) as [c1 mc]; cbn [fst] in H1.
  - (* PF_Create: create_connection returned *)
    match type of E with match ?d with _ => _ end = _ => destruct d as [|e] end.
    + match type of E with context [ready ?x] => destruct (ready x) end; apply some_inj in E; subst r;
        first [reflexivity | apply quiet_finish_after_ready, H1 | apply quiet_finish_fail, H1].
    + match type of E with context [finish_fail ?x e] =>
        pose proof (quiet_finish_fail x e) as Q; destruct (finish_fail x e) as [c3 o3] end.
      apply some_inj in E. subst r. cbn [snd] in *. rewrite quietb_app, Q by (destruct (transport c1); exact H1).
      destruct (transport c1); reflexivity.
  - (* PF_Ready: the helper is ready, or failed *)
    destruct mc; [|destruct (ready c1)]; apply some_inj in E; subst r;
      first [apply quiet_finish_after_ready, H1 | apply quiet_finish_fail, H1].
  - (* PF_Hello: hello / login answered *)
    pose proof (CL_call_finally c1 cid H1) as H2.
    match type of E with match ?d with _ => _ end = _ => destruct d as [|e] end; [destruct (check_hello_login _ _)|];
      apply some_inj in E; subst r; first [apply quiet_finish_success, H2 | apply quiet_finish_fail, H2].
Qed.

Lemma quiet_wake_disc c r : wake_disc c = Some r -> CL c -> quietb (snd r) = true.
Proof.
  unfold wake_disc. intros E H.
  destruct (pc (get_task c TDisc)) as [| | | | | | |cid| |]; try discriminate;
    lazymatch type of E with   (* PD_Resp: the call exists *)
    | context [get_call _ ?x] => destruct (get_call c x) as [kk|]; [|discriminate]
    | _ => idtac
    end;
    (destruct (_ || _); [|discriminate]);
    pose proof (CL_take_cancel c TDisc H) as H1; destruct (take_cancel c TDisc) as [c1 mc]; cbn [fst] in H1.
  - (* PD_Wait: the wait for finish_connection is over *)
    destruct mc; apply some_inj in E; subst r; [reflexivity|].
    apply quiet_disconnect_after_wait. destruct (finish_fut _); try exact H1. destruct (fatal _); exact H1.
  - (* PD_Resp: the DisconnectResponse, or what stands for it *)
    pose proof (CL_call_finally c1 cid H1) as (H2 & _).
    pose proof (quiet_tail (call_finally c1 cid) TDisc (fun _ => TOk) (fun x => x) H2) as K.
    destruct (cleanup (call_finally c1 cid)) as [c3 o3]. unfold finish_task in *.
    match type of E with match ?d with _ => _ end = _ => destruct d as [|[]] end; apply some_inj in E; subst r;
      first [exact K | reflexivity].
Qed.

Lemma quiet_wake_call c cid r : wake_call c cid = Some r -> quietb (snd r) = true.
Proof.
  unfold wake_call. intro E.
  destruct (pc (get_task c (TCall cid))); try discriminate. destruct (get_call c cid) as [kk|]; [|discriminate].
  destruct (_ || _); [|discriminate]. destruct (take_cancel c (TCall cid)) as [c1 mc].
  apply some_inj in E. subst r. reflexivity.
Qed.

Lemma quiet_res (r : conn * list obs) c' o : Some r = Some (c', o) -> quietb (snd r) = true -> quietb o = true.
Proof. intro E. apply some_inj in E. subst r. exact (fun Q => Q). Qed.

Theorem closed_quiet c l r : step c l = Some r -> QS c r.
Proof.
  destruct r as [c' o]. intros E H. split; [exact (CL_spath l _ _ _ (step_path _ _ _ _ E) H)|]. cbn [snd].
  pose proof H as (H1 & H2 & H3).
  destruct l as [|lg| | |send types ap st tmo|tys|t|ty u|ty u|r g|r| | |r|items| |e|b|t|t|is_start| | |k]; cbn [step] in E.
  - (* LStart *) rewrite H1 in E. exact (quiet_res _ _ _ E eq_refl).
  - (* LFinish *) rewrite H1 in E. exact (quiet_res _ _ _ E eq_refl).
  - (* LDisconnect *)
    destruct (pc (t_disc c)); try discriminate.
    destruct (finish_fut c); try (apply (quiet_res _ _ _ E), quiet_disconnect_after_wait, H). exact (quiet_res _ _ _ E eq_refl).
  - (* LForce *)
    change (handshake_complete (c <| expected_disconnect := true |>)) with (handshake_complete c) in E. rewrite H2 in E.
    match type of E with context [cleanup ?x] => pose proof (quiet_cleanup x H1) as K; destruct (cleanup x) as [c3 o3] end.
    exact (quiet_res _ _ _ E K).
  - (* LCallStart *) rewrite call_begin_closed in E by exact H. exact (quiet_res _ _ _ E eq_refl).
  - (* LSend *) rewrite send_messages_closed in E by exact H. exact (quiet_res _ _ _ E eq_refl).
  - (* LCancel *) destruct (task_running _); exact (quiet_res _ _ _ E eq_refl).
  - (* LSub *) exact (quiet_res _ _ _ E eq_refl).
  - (* LUnsub *) exact (quiet_res _ _ _ E eq_refl).
  - (* LResolveDone *) repeat dmh E; try discriminate; exact (quiet_res _ _ _ E eq_refl).
  - (* LTcpDone *) repeat dmh E; try discriminate; exact (quiet_res _ _ _ E eq_refl).
  - (* LMade *) repeat dmh E; try discriminate; exact (quiet_res _ _ _ E eq_refl).
  - (* LMadeWaiter *) repeat dmh E; try discriminate; exact (quiet_res _ _ _ E eq_refl).
  - (* LHelperReady *)
    destruct (ready c); try discriminate. destruct (made c); try discriminate. destruct (transport c); try discriminate.
    destruct r as [e|]; [|exact (quiet_res _ _ _ E eq_refl)].
    pose proof (quiet_helper_error c e H1) as K. destruct (helper_error c e) as [c1 o1]. cbn [snd] in K.
    destruct (transport c1); apply (quiet_res _ _ _ E); cbn [snd]; rewrite ?quietb_app, K; reflexivity.
  - (* LData *)
    destruct (transport c); try discriminate. destruct (made c); try discriminate.
    pose proof (quiet_data_loop items c H) as K. destruct (data_loop c items) as [[c1 o1] ex]. cbn [fst snd] in K.
    destruct ex; [destruct (transport c1)|]; apply (quiet_res _ _ _ E); cbn [snd]; rewrite ?quietb_app, K; reflexivity.
  - (* LEof *)
    destruct (transport c); try discriminate. destruct (made c); try discriminate.
    pose proof (quiet_helper_error c (Lib LSocketClosed) H1) as K. destruct (helper_error c (Lib LSocketClosed)) as [c1 o1]. cbn [snd] in K.
    destruct (transport c1); apply (quiet_res _ _ _ E); cbn [snd]; rewrite ?quietb_app, K; reflexivity.
  - (* LLost *) repeat dmh E; try discriminate; exact (quiet_res _ _ _ E eq_refl).
  - (* LWriteFails *) exact (quiet_res _ _ _ E eq_refl).
  - (* LAdvance *) repeat dmh E; try discriminate; exact (quiet_res _ _ _ E eq_refl).
  - (* LWake *)
    destruct t; [exact (quiet_wake_start _ _ E H)|exact (quiet_wake_finish _ _ E H)|exact (quiet_wake_disc _ _ E H)|exact (quiet_wake_call _ _ _ E)].
  - (* LIntr *) repeat dmh E; try discriminate; exact (quiet_res _ _ _ E eq_refl).
  - (* LDiscWaitDone *) repeat dmh E; try discriminate; exact (quiet_res _ _ _ E eq_refl).
  - (* LConnLostCb *)
    destruct (transport c) as [| |e|]; try discriminate.
    match type of E with context [made ?x] => destruct (made x) end; [|exact (quiet_res _ _ _ E eq_refl)].
    apply (quiet_res _ _ _ E), quiet_helper_error, H1.
  - (* LTimer *)
    destruct k as [| | | |cid|].
    + (* TkPing *) destruct (due (ping_timer c) c); [|discriminate].
      match type of E with context [send_pending_ping ?x] => destruct (send_pending_ping x) end; [|exact (quiet_res _ _ _ E eq_refl)].
      rewrite send_messages_closed in E by exact H. exact (quiet_res _ _ _ E eq_refl).
    + (* TkPong *) destruct (due (pong_timer c) c); [|discriminate]. apply (quiet_res _ _ _ E), quiet_report_fatal, H1.
    + (* TkHandshake *) destruct (due (hs_timer c) c); [|discriminate]. destruct (ready c); exact (quiet_res _ _ _ E eq_refl).
    + (* TkConnect *) destruct (due (conn_timer c) c); [|discriminate]. exact (quiet_res _ _ _ E eq_refl).
    + (* TkCall *) repeat dmh E; try discriminate; exact (quiet_res _ _ _ E eq_refl).
    + (* TkDiscWait *) repeat dmh E; try discriminate; exact (quiet_res _ _ _ E eq_refl).
Qed.
