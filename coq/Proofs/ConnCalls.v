(* C11: request/response calls of Model/Conn.v. *)
From Coq Require Import NArith ZArith List Bool Lia.
From RecordUpdate Require Import RecordSet.
From Verif Require Import Generated.GenConstants Model.Conn.
Import ListNotations RecordSetNotations.
Open Scope Z_scope.
Open Scope list_scope.

(* the specification: accepted messages in arrival order up to and including the first stop message *)
Fixpoint collect (ap st : pred) (ms : list msg) : list msg :=
  match ms with
  | [] => []
  | m :: r => (if eval_pred ap m then [m] else []) ++ (if eval_pred st m then [] else collect ap st r)
  end.

(* handle_complex_message on the call record *)
Definition call_step (k : call) (m : msg) : call :=
  match c_fut k with
  | CPending =>
    let k1 := if eval_pred (c_append k) m then k <| c_responses := c_responses k ++ [m] |> else k in
    if eval_pred (c_stop k) m then k1 <| c_fut := CResult |> else k1
  | _ => k
  end.

Theorem call_done_ignores k m : c_fut k <> CPending -> call_step k m = k.
Proof. intro H. unfold call_step. destruct (c_fut k); try reflexivity. contradiction. Qed.

Lemma fold_call_step_done ms : forall k, c_fut k <> CPending -> fold_left call_step ms k = k.
Proof. induction ms as [|m ms IH]; intros k H; cbn [fold_left]; [reflexivity|]. rewrite call_done_ignores by exact H. apply IH, H. Qed.
Lemma call_step_preds k m : c_append (call_step k m) = c_append k /\ c_stop (call_step k m) = c_stop k.
Proof. unfold call_step. destruct (c_fut k); auto. destruct (eval_pred (c_append k) m), (eval_pred (c_stop k) m); auto. Qed.

Lemma call_step_pending k m : c_fut k = CPending ->
  c_responses (call_step k m) = c_responses k ++ (if eval_pred (c_append k) m then [m] else []) /\
  c_fut (call_step k m) = if eval_pred (c_stop k) m then CResult else CPending.
Proof.
  intro Hp. unfold call_step. rewrite Hp.
  destruct (eval_pred (c_append k) m), (eval_pred (c_stop k) m); cbn; rewrite ?app_nil_r; auto.
Qed.

Theorem call_collects ms : forall k,
  c_fut k = CPending ->
  c_responses (fold_left call_step ms k) = c_responses k ++ collect (c_append k) (c_stop k) ms /\
  c_fut (fold_left call_step ms k) = (if existsb (eval_pred (c_stop k)) ms then CResult else CPending).
Proof.
  induction ms as [|m ms IH]; intros k Hp; cbn [fold_left collect existsb].
  - rewrite app_nil_r. auto.
  - destruct (call_step_preds k m) as [Pa Ps]. destruct (call_step_pending k m Hp) as [Rr Rf].
    destruct (eval_pred (c_stop k) m); cbn [orb].
    + rewrite fold_call_step_done by (rewrite Rf; discriminate). rewrite app_nil_r. exact (conj Rr Rf).
    + destruct (IH _ Rf) as [A B]. rewrite Pa, Ps in A. rewrite Ps in B. split; [|exact B].
      rewrite A, Rr, <- app_assoc. reflexivity.
Qed.

Definition has_handler (c : conn) (cid : nat) : bool := existsb (fun p => hid_eqb (snd p) (HCall cid)) (handlers c).

Lemma hid_eqb_refl h : hid_eqb h h = true.
Proof. destruct h; cbn; auto using Nat.eqb_refl. Qed.

Lemma filter_filter {A} (f g : A -> bool) (l : list A) : filter f (filter g l) = filter (fun x => g x && f x) l.
Proof. induction l as [|a r IH]; cbn; [reflexivity|]. destruct (g a); cbn; [destruct (f a); cbn; rewrite IH; reflexivity|exact IH]. Qed.

Lemma handlers_remove_fold l cid : forall c,
  handlers (fold_left (fun a ty => remove_handler a ty (HCall cid)) l c) =
  filter (fun p => negb (existsb (N.eqb (fst p)) l && hid_eqb (snd p) (HCall cid))) (handlers c).
Proof.
  induction l as [|ty l IH]; intro c; cbn [fold_left existsb].
  - cbn. induction (handlers c) as [|a r IHr]; cbn; [reflexivity|]. f_equal. exact IHr.
  - rewrite IH.
    change (handlers (remove_handler c ty (HCall cid)))
      with (filter (fun p => negb (N.eqb (fst p) ty && hid_eqb (snd p) (HCall cid))) (handlers c)).
    rewrite filter_filter. apply filter_ext. intro a.
    destruct (N.eqb (fst a) ty), (existsb (N.eqb (fst a)) l), (hid_eqb (snd a) (HCall cid)); reflexivity.
Qed.

(* all handlers of a call are registered under the call's own types (true of call_begin); then the finally block,
   which removes the callback for exactly those types, removes every trace of the call *)
Definition own_types_only (c : conn) (cid : nat) (types : list N) : Prop :=
  forall p, In p (handlers c) -> hid_eqb (snd p) (HCall cid) = true -> existsb (N.eqb (fst p)) types = true.

Theorem call_finally_clean c cid k :
  get_call c cid = Some k -> own_types_only c cid (c_types k) ->
  let c' := call_finally c cid in
  has_handler c' cid = false /\ existsb (Nat.eqb cid) (waiters c') = false /\
  (forall k', get_call c' cid = Some k' -> c_timer k' = None).
Proof.
  intros Ek Hown. unfold call_finally. rewrite Ek. cbn zeta. split; [|split].
  - unfold has_handler. cbn [handlers set]. rewrite handlers_remove_fold.
    apply not_true_is_false. intro Hx. apply existsb_exists in Hx. destruct Hx as (p & Hin & Hp).
    apply filter_In in Hin. destruct Hin as [Hin Hf]. cbn [handlers upd_call set] in Hin.
    rewrite (Hown p Hin Hp), Hp in Hf. discriminate.
  - cbn [waiters set]. apply not_true_is_false. intro Hx. apply existsb_exists in Hx. destruct Hx as (w & Hin & Hw).
    apply filter_In in Hin. destruct Hin as [_ Hf]. apply Nat.eqb_eq in Hw. subst w. rewrite Nat.eqb_refl in Hf. discriminate.
  - intros k' Ek'. unfold get_call in Ek'. apply find_some in Ek'. destruct Ek' as [Hin Hid].
    assert (Hc : forall x, calls (fold_left (fun a ty => remove_handler a ty (HCall cid)) (c_types k) x) = calls x).
    { generalize (c_types k). intro l. induction l as [|a l IH]; intro x; cbn [fold_left]; [reflexivity|]. rewrite IH. reflexivity. }
    cbn [calls set] in Hin. rewrite Hc in Hin. unfold upd_call in Hin. cbn [calls set] in Hin.
    apply in_map_iff in Hin. destruct Hin as (k0 & Hk0 & _). destruct (Nat.eqb (c_id k0) cid) eqn:Q.
    + subst k'. reflexivity.
    + subst k'. rewrite Q in Hid. discriminate.
Qed.

(* every way a call task ends runs the finally block first *)
Theorem wake_call_runs_finally c cid c' o :
  wake_call c cid = Some (c', o) ->
  exists c1 r, c' = fst (finish_task (call_finally c1 cid) (TCall cid) r) /\ c1 = fst (take_cancel c (TCall cid)).
Proof.
  unfold wake_call. intro E.
  destruct (pc (get_task c (TCall cid))); try discriminate.
  destruct (get_call c cid) as [kk|]; [|discriminate].
  destruct (must_cancel (get_task c (TCall cid)) || cfut_done (c_fut kk)); [|discriminate].
  destruct (take_cancel c (TCall cid)) as [c1 mc]. cbn [fst].
  injection E as E _. subst c'. eexists. eexists. split; reflexivity.
Qed.

Theorem wake_call_outcome c cid c' o kk :
  wake_call c cid = Some (c', o) -> get_call c cid = Some kk ->
  In (OTaskDone (TCall cid)
        (if must_cancel (get_task c (TCall cid)) then TRaise CancelledErr
         else match deliver_cfut (c_fut kk) with DOk => TOk | DExc e => TRaise e end)) o.
Proof.
  unfold wake_call. intros E Ek. rewrite Ek in E.
  destruct (pc (get_task c (TCall cid))); try discriminate.
  destruct (must_cancel (get_task c (TCall cid)) || cfut_done (c_fut kk)) eqn:Ec; [|discriminate].
  unfold take_cancel in E. destruct (must_cancel (get_task c (TCall cid))) eqn:Em; injection E as _ <-; left; reflexivity.
Qed.

(* the timeout fires exactly at sent_at + timeout: virtual time cannot pass an armed deadline *)
Theorem advance_respects_deadlines c t c' o :
  step c (LAdvance t) = Some (c', o) -> forall d, In d (armed_deadlines c) -> t <= d.
Proof.
  cbn [step]. destruct (Z.leb (now c) t && forallb (fun d => Z.leb t d) (armed_deadlines c)) eqn:E; [|discriminate].
  intros _ d Hd. apply andb_true_iff in E. destruct E as [_ E]. rewrite forallb_forall in E. apply Z.leb_le. apply E. exact Hd.
Qed.
Theorem call_timer_due_iff c cid k :
  get_call c cid = Some k -> c_timer k = Some (c_sent_at k + c_timeout k) ->
  (step c (LTimer (TkCall cid)) <> None <-> c_sent_at k + c_timeout k <= now c).
Proof.
  intros Ek Et. cbn [step]. rewrite Ek. unfold due. rewrite Et. destruct (Z.leb_spec (c_sent_at k + c_timeout k) (now c)); split; intro H0; try lia; try discriminate.
  contradiction H0. reflexivity.
Qed.

Lemma find_upd (l : list call) cid x (f : call -> call) :
  (forall k, c_id k = cid -> c_id (f k) = cid) ->
  find (fun k => Nat.eqb (c_id k) x) (map (fun k => if Nat.eqb (c_id k) cid then f k else k) l) =
  if Nat.eqb x cid then option_map f (find (fun k => Nat.eqb (c_id k) x) l) else find (fun k => Nat.eqb (c_id k) x) l.
Proof.
  intro Hf. induction l as [|a r IH]; cbn [map find].
  - destruct (Nat.eqb x cid); reflexivity.
  - destruct (Nat.eqb (c_id a) cid) eqn:E1.
    + apply Nat.eqb_eq in E1. rewrite (Hf a E1). rewrite E1. destruct (Nat.eqb cid x) eqn:E4.
      * apply Nat.eqb_eq in E4. subst x. rewrite Nat.eqb_refl. reflexivity.
      * assert (E5 : Nat.eqb x cid = false) by (rewrite Nat.eqb_sym; exact E4). rewrite E5 in *. exact IH.
    + destruct (Nat.eqb (c_id a) x) eqn:E2; [|exact IH].
      apply Nat.eqb_eq in E2. subst x. rewrite E1. reflexivity.
Qed.

Lemma get_call_upd c cid x f :
  (forall k, c_id k = cid -> c_id (f k) = cid) ->
  get_call (upd_call c cid f) x = if Nat.eqb x cid then option_map f (get_call c x) else get_call c x.
Proof. exact (find_upd (calls c) cid x f). Qed.
Lemma get_call_id c cid k : get_call c cid = Some k -> c_id k = cid.
Proof. intro Ek. apply find_some in Ek. apply Nat.eqb_eq, Ek. Qed.

(* handle_complex_message acts on its own call record only *)
Theorem handle_call_message_own c cid m k :
  get_call c cid = Some k -> get_call (handle_call_message c cid m) cid = Some (call_step k m).
Proof.
  intro Ek. pose proof (get_call_id c cid k Ek) as Hid. unfold handle_call_message, call_step. rewrite Ek.
  destruct (c_fut k); try exact Ek. rewrite get_call_upd, Nat.eqb_refl, Ek; [reflexivity|].
  intros q _. destruct (eval_pred (c_append k) m), (eval_pred (c_stop k) m); exact Hid.
Qed.

Theorem handle_call_message_others c cid cid' m :
  cid' <> cid -> get_call (handle_call_message c cid m) cid' = get_call c cid'.
Proof.
  intro Hn. unfold handle_call_message. destruct (get_call c cid) as [k|] eqn:Ek; [|reflexivity].
  pose proof (get_call_id c cid k Ek) as Hid. destruct (c_fut k); try reflexivity.
  apply Nat.eqb_neq in Hn. rewrite get_call_upd, Hn; [reflexivity|].
  intros q _. destruct (eval_pred (c_append k) m), (eval_pred (c_stop k) m); exact Hid.
Qed.

(* two call tables related entry by entry, by a relation that keeps the id *)
Section Pointwise.
  Variable rel : call -> call -> Prop.
  Hypothesis rel_refl : forall k, rel k k.
  Hypothesis rel_id : forall k k', rel k k' -> c_id k' = c_id k.

  Lemma F2_refl l : Forall2 rel l l.
  Proof. induction l; constructor; [apply rel_refl|assumption]. Qed.
  Lemma F2_trans : (forall a b c, rel a b -> rel b c -> rel a c) -> forall a b c, Forall2 rel a b -> Forall2 rel b c -> Forall2 rel a c.
  Proof.
    intros T a b c H. revert c. induction H as [|x y l l' Hxy Hl IH]; intros c Hc; inversion Hc; subst; constructor; [eapply T; eassumption|].
    apply IH. assumption.
  Qed.
  Lemma F2_map l g : (forall k, rel k (g k)) -> Forall2 rel l (map g l).
  Proof. intro H. induction l; cbn; constructor; auto. Qed.
  Lemma F2_upd_call c cid g : (forall k, rel k (g k)) -> Forall2 rel (calls c) (calls (upd_call c cid g)).
  Proof.
    intro H. change (calls (upd_call c cid g)) with (map (fun k => if Nat.eqb (c_id k) cid then g k else k) (calls c)).
    apply F2_map. intro k. destruct (Nat.eqb (c_id k) cid); [apply H|apply rel_refl].
  Qed.
  Lemma F2_in l l' k' : Forall2 rel l l' -> In k' l' -> exists k, In k l /\ rel k k'.
  Proof.
    induction 1 as [|x y l l' Hxy _ IH]; intros Hin; [destruct Hin|].
    destruct Hin as [<-|Hin]; [exists x; split; [left; reflexivity|exact Hxy]|].
    destruct (IH Hin) as (k & A & B). exists k. split; [right; exact A|exact B].
  Qed.
  Lemma F2_find l l' cid k : Forall2 rel l l' -> find (fun k => Nat.eqb (c_id k) cid) l = Some k ->
    exists k', find (fun k => Nat.eqb (c_id k) cid) l' = Some k' /\ rel k k'.
  Proof.
    induction 1 as [|x y l l' Hxy _ IH]; cbn; [discriminate|].
    rewrite (rel_id _ _ Hxy). destruct (Nat.eqb (c_id x) cid); [|exact IH].
    intro E. injection E as <-. exists y. split; [reflexivity|exact Hxy].
  Qed.
  Lemma ids_F2 l l' : Forall2 rel l l' -> map c_id l' = map c_id l.
  Proof. induction 1 as [|x y l l' Hxy _ IH]; cbn; [reflexivity|]. rewrite (rel_id _ _ Hxy), IH. reflexivity. Qed.

  (* where ids are unique, replacing every record of an id by one related to the record found under it is pointwise *)
  Lemma F2_upd_const l cid k k2 : NoDup (map c_id l) -> find (fun x => Nat.eqb (c_id x) cid) l = Some k -> rel k k2 ->
    Forall2 rel l (map (fun x => if Nat.eqb (c_id x) cid then k2 else x) l).
  Proof.
    induction l as [|x l IHl]; cbn; intros U F R; [discriminate|].
    inversion U as [|? ? Hn U']; subst.
    destruct (Nat.eqb (c_id x) cid) eqn:E.
    - injection F as ->. constructor; [exact R|].
      apply Nat.eqb_eq in E. subst cid. clear - Hn rel_refl.
      induction l as [|y l IHl]; cbn; constructor.
      + destruct (Nat.eqb (c_id y) (c_id k)) eqn:Q; [|apply rel_refl]. apply Nat.eqb_eq in Q. exfalso. apply Hn. left. exact Q.
      + apply IHl. intro H. apply Hn. right. exact H.
    - constructor; [apply rel_refl|]. apply IHl; assumption.
  Qed.
End Pointwise.
