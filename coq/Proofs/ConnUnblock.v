(* For C08: when a connection closes, no request/response coroutine stays blocked on it.
   PW: a call future that is still pending is registered as a waiter - so the close, which fails every waiter, leaves no
   pending call future, and every task awaiting a call (a user request, the hello / login of finish_connection, the request of
   disconnect()) is resumable in the closed state.  The side invariants: a pending-cancel flag on a task that awaits a call
   means that call's future is done already (a cancel that finds the future pending cancels the future instead), and a
   coroutine that has not started carries no flag.  (The two connect coroutines before their first call are covered by the
   guard of C09: they wait under their connect / handshake deadlines and the interrupt block.)
   Closing, sending and the dispatch of incoming frames only take call futures from pending to done and drop a waiter only
   when its future is done: the relation Wm, stated on the moves of Proofs/ConnMoves.v.  The coroutines that await calls, and
   Task.cancel() of one, are followed function by function, because PW is not a property of their single moves: the finally
   block of a call drops a waiter whose future is done only by the guard of the wake-up (awaited_done), Task.cancel() raises
   the flag only where it found the awaited future done (cancel_awaited_undelivered), and a coroutine goes on to await a
   fresh call only after take_cancel has cleared its flag. *)
From Coq Require Import NArith ZArith List Bool PeanoNat.
From RecordUpdate Require Import RecordSet.
From Verif Require Import Model.Conn Proofs.ConnMoves Proofs.ConnRun Proofs.ConnCalls Proofs.ConnOutcome Proofs.ConnCancel Proofs.ConnGuard.
Import ListNotations RecordSetNotations.
Open Scope Z_scope.
Open Scope list_scope.

Definition pend_wait (c : conn) : Prop := forall k, In k (calls c) -> c_fut k = CPending -> In (c_id k) (waiters c).
Definition mc_done (c : conn) : Prop :=
  forall t cid, awaited (pc (get_task c t)) = Some cid -> must_cancel (get_task c t) = true ->
    exists kk, get_call c cid = Some kk /\ cfut_done (c_fut kk) = true.
Definition fresh_clean (c : conn) : Prop := forall t, pc (get_task c t) = PNone -> must_cancel (get_task c t) = false.
Record PW (c : conn) : Prop := { w_p : pend_wait c; w_m : mc_done c; w_f : fresh_clean c }.

Definition wrel (k k' : call) : Prop := c_id k' = c_id k /\ (c_fut k' = c_fut k \/ cfut_done (c_fut k') = true).
Lemma wrel_refl k : wrel k k.
Proof. unfold wrel. auto. Qed.
Lemma wrel_trans a b c : wrel a b -> wrel b c -> wrel a c.
Proof. intros (A1 & A2) (B1 & B2). split; [congruence|]. destruct B2 as [B2|B2]; [|right; exact B2]. destruct A2 as [A2|A2]; [left|right]; congruence. Qed.
Lemma wrel_id k k' : wrel k k' -> c_id k' = c_id k.
Proof. intros [E _]. exact E. Qed.
Lemma wrel_in_fwd l l' k : Forall2 wrel l l' -> In k l -> exists k', In k' l' /\ wrel k k'.
Proof.
  induction 1 as [|x y l l' Hxy _ IH]; intros Hin; [destruct Hin|].
  destruct Hin as [<-|Hin]; [exists y; split; [left; reflexivity|exact Hxy]|].
  destruct (IH Hin) as (k' & A & B). exists k'. split; [right; exact A|exact B].
Qed.

(* Wm c c': from c to c' call futures only went from pending to done, and a waiter was dropped only if its future is done *)
Record Wm (c c' : conn) : Prop := {
  wm_t : forall t, pc (get_task c' t) = pc (get_task c t) /\ must_cancel (get_task c' t) = must_cancel (get_task c t);
  wm_c : Forall2 wrel (calls c) (calls c');
  wm_w : forall w, In w (waiters c) -> In w (waiters c') \/ (forall k', In k' (calls c') -> c_id k' = w -> cfut_done (c_fut k') = true) }.

Lemma Wm_refl c : Wm c c.
Proof. constructor; auto. apply F2_refl, wrel_refl. Qed.
Lemma Wm_trans a b c : Wm a b -> Wm b c -> Wm a c.
Proof.
  intros [A1 A2 A3] [B1 B2 B3]. constructor.
  - intro t. destruct (A1 t) as [X1 X2]. destruct (B1 t) as [Y1 Y2]. split; congruence.
  - eapply F2_trans; [exact wrel_trans|eassumption|eassumption].
  - intros w Hw. destruct (A3 w Hw) as [H|H].
    + destruct (B3 w H) as [H'|H']; [left; exact H'|right; exact H'].
    + right. intros k'' I'' E''. destruct (F2_in wrel _ _ _ B2 I'') as (k' & I' & (E' & [F|F])); [|exact F].
      rewrite F. apply (H k' I'). congruence.
Qed.

Lemma Wm_done c c' cid : Wm c c' -> done_at c cid -> done_at c' cid.
Proof.
  intros HM (kk & G & D). destruct (F2_find wrel wrel_id _ _ cid kk (wm_c _ _ HM) G) as (kk' & G' & _ & F).
  exists kk'. split; [exact G'|]. destruct F as [F|F]; [rewrite F; exact D|exact F].
Qed.

Lemma PW_Wm c c' : Wm c c' -> PW c -> PW c'.
Proof.
  intros HM [B1 B2 B3]. pose proof HM as [A1 A2 A3]. constructor.
  - intros k' I' P'. destruct (F2_in wrel _ _ _ A2 I') as (k & I & (E & [F|F])); [|rewrite P' in F; discriminate].
    assert (Hw : In (c_id k) (waiters c)) by (apply B1; [exact I|congruence]).
    destruct (A3 _ Hw) as [H|H]; [rewrite E; exact H|]. specialize (H k' I' E). rewrite P' in H. discriminate.
  - intros t cid Ha Hm. destruct (A1 t) as [X1 X2]. rewrite X1 in Ha. rewrite X2 in Hm.
    exact (Wm_done _ _ cid HM (B2 t cid Ha Hm)).
  - intros t Hp. destruct (A1 t) as [X1 X2]. rewrite X2. apply B3. congruence.
Qed.

(* wv c: the fields PW and Wm speak of *)
Definition wv (c : conn) := (t_start c, t_finish c, t_disc c, call_tasks c, calls c, waiters c).
Lemma get_task_wv c c' t : wv c' = wv c -> get_task c' t = get_task c t.
Proof. unfold wv. intro E. injection E as E1 E2 E3 E4 _ _. destruct t; cbn [get_task]; try assumption. rewrite E4. reflexivity. Qed.
Lemma Wm_wv c c' : wv c' = wv c -> Wm c c'.
Proof.
  intro E. pose proof (fun t => get_task_wv c c' t E) as HT. unfold wv in E. injection E as _ _ _ _ E5 E6. constructor.
  - intro t. rewrite HT. auto.
  - rewrite E5. apply F2_refl, wrel_refl.
  - intros w Hw. left. rewrite E6. exact Hw.
Qed.
Lemma Wm_tasks c c' : (forall t, pc (get_task c' t) = pc (get_task c t) /\ must_cancel (get_task c' t) = must_cancel (get_task c t)) ->
  calls c' = calls c -> waiters c' = waiters c -> Wm c c'.
Proof. intros HT Ec Ew. constructor; [exact HT|rewrite Ec; apply F2_refl, wrel_refl|intros w Hw; left; rewrite Ew; exact Hw]. Qed.
Lemma PW_wv c c' : wv c' = wv c -> PW c -> PW c'.
Proof. intro E. apply PW_Wm, Wm_wv. exact E. Qed.
Lemma F1_wv c c' : wv c' = wv c -> next_cid c' = next_cid c -> F1 c -> F1 c'.
Proof. intros E N. unfold wv in E. injection E as _ _ _ _ E5 _. apply F1_calls_next; assumption. Qed.

Lemma wv_add c ty h : wv (add_handler c ty h) = wv c.
Proof. unfold add_handler. destruct (existsb _ _); reflexivity. Qed.
Lemma wv_fold_add l h : forall c, wv (fold_left (fun a ty => add_handler a ty h) l c) = wv c.
Proof. apply (fold_left_view wv). intros a ty. apply wv_add. Qed.
Lemma wv_fold_remove l h : forall c, wv (fold_left (fun a ty => remove_handler a ty h) l c) = wv c.
Proof. apply (fold_left_view wv). reflexivity. Qed.
Lemma wv_internal_handlers c : wv (internal_handlers c) = wv c.
Proof. unfold internal_handlers. rewrite !wv_add. reflexivity. Qed.

Lemma Wm_upd_call c cid g : (forall k, wrel k (g k)) -> Wm c (upd_call c cid g).
Proof.
  intro H. constructor.
  - intro t. destruct t; split; reflexivity.
  - exact (F2_upd_call wrel wrel_refl c cid g H).
  - intros w Hw. left. exact Hw.
Qed.

Lemma wrel_fail_waiter e k : wrel k (fail_waiter e k) /\ cfut_done (c_fut (fail_waiter e k)) = true.
Proof. unfold wrel, fail_waiter. destruct (c_fut k) eqn:Ef; cbn; rewrite ?Ef; auto. Qed.

Lemma Wm_close_state c : Wm c (close_state c).
Proof.
  set (f := fun k => if existsb (Nat.eqb (c_id k)) (waiters c) then fail_waiter (waiter_exc (fatal c)) k else k).
  assert (Hf : forall k, wrel k (f k)) by (intro k; unfold f; destruct (existsb _ _); [apply wrel_fail_waiter|apply wrel_refl]).
  constructor; change (calls (close_state c)) with (map f (calls c)).
  - intro t. destruct t; split; reflexivity.
  - apply F2_map, Hf.
  - intros w Hw. right. intros k' I' E'. apply in_map_iff in I'. destruct I' as (k & <- & _).
    rewrite (wrel_id _ _ (Hf k)) in E'. unfold f.
    replace (existsb (Nat.eqb (c_id k)) (waiters c)) with true; [apply wrel_fail_waiter|].
    symmetry. apply existsb_exists. exists w. split; [exact Hw|apply Nat.eqb_eq, E'].
Qed.

(* stated of a variable: by computation on `resolve_futures (close_state c)` the check unfolds close_state *)
Lemma wv_resolve_futures c : wv (resolve_futures c) = wv c.
Proof. reflexivity. Qed.
Lemma Wm_close c o c' : close_atom c o c' -> Wm c c'.
Proof.
  destruct 1; try (apply Wm_wv; reflexivity).
  - (* ACloseState *)
    apply (Wm_trans _ (close_state c)); [apply Wm_close_state|apply Wm_wv, wv_resolve_futures].
Qed.
Lemma Wm_cpath c o c' : cpath c o c' -> Wm c c'.
Proof. apply path_rel; [exact Wm_refl|exact Wm_trans|exact Wm_close]. Qed.
Lemma PW_cpath c o c' : cpath c o c' -> PW c -> PW c'.
Proof. intro P. exact (PW_Wm _ _ (Wm_cpath _ _ _ P)). Qed.

Lemma wrel_recv k m : c_fut k = CPending -> wrel k (recv k m).
Proof. intro Ef. unfold wrel, recv. destruct (eval_pred (c_stop k) m), (eval_pred (c_append k) m); cbn; rewrite ?Ef; auto. Qed.

Lemma Wm_data c o c' : data_atom c o c' -> uniq c -> Wm c c'.
Proof.
  destruct 1 as [c o c' H| |c cid k m G Ef|c a| |]; intro U; try (apply Wm_wv; reflexivity).
  - (* DClose *) exact (Wm_close _ _ _ H).
  - (* DCallMsg: the frame goes to the one call with that id, whose future is pending *)
    constructor; [intro t; destruct t; split; reflexivity| |intros w Hw; left; exact Hw].
    exact (F2_upd_const wrel wrel_refl (calls c) cid k _ U G (wrel_recv k m Ef)).
  - (* DAction *) destruct a; apply Wm_wv; [apply wv_add|reflexivity].
Qed.
Lemma Wm_dpath c o c' : dpath c o c' -> uniq c -> Wm c c'.
Proof.
  apply (path_rel_under data_atom uniq Wm Wm_refl Wm_trans); [|exact Wm_data].
  intros x ox x' A U. exact (uniq_F2 wrel _ _ wrel_id (wm_c _ _ (Wm_data _ _ _ A U)) U).
Qed.

Lemma set_task_wfields c t k' : calls (set_task c t k') = calls c /\ waiters (set_task c t k') = waiters c.
Proof. destruct t; split; reflexivity. Qed.

Lemma get_set_task c t k' t' : get_task (set_task c t k') t' = get_task c t' \/ (t' = t /\ get_task (set_task c t k') t' = k').
Proof.
  (* a call task that does not exist is not created by set_task *)
  destruct (exists_task_dec c t) as [X|X]; [|left; exact (get_task_ab _ _ t' (set_task_absent c t k' X))].
  destruct (set_task_facts c t k' X) as (E & O & _).
  destruct (tid_dec t' t) as [->|N]; [right; split; [reflexivity|exact E]|left; exact (O t' N)].
Qed.

Lemma PW_set_task c t k' : PW c ->
  (forall cid, awaited (pc k') = Some cid -> must_cancel k' = true -> done_at c cid) ->
  (pc k' = PNone -> must_cancel k' = false) ->
  PW (set_task c t k').
Proof.
  intros [B1 B2 B3] Hk Hf. destruct (set_task_wfields c t k') as [F1 F2]. constructor.
  - intros k I P. rewrite F1 in I. rewrite F2. apply B1; assumption.
  - intros t' cid. unfold done_at, get_call. rewrite F1. destruct (get_set_task c t k' t') as [E|[_ E]]; rewrite E; [apply B2|apply Hk].
  - intro t'. destruct (get_set_task c t k' t') as [E|[_ E]]; rewrite E; [apply B3|apply Hf].
Qed.
Lemma PW_set_task_same c t k' : PW c -> pc k' = pc (get_task c t) -> must_cancel k' = must_cancel (get_task c t) -> PW (set_task c t k').
Proof.
  intros H Hp Hm. apply PW_set_task; [exact H| |].
  - intros cid Ha Hc. apply (w_m _ H t cid); congruence.
  - intro Q. rewrite Hm. apply (w_f _ H). congruence.
Qed.
Lemma PW_set_task_quiet c t k' : PW c -> (awaited (pc k') = None \/ must_cancel k' = false) -> pc k' <> PNone -> PW (set_task c t k').
Proof.
  intros H Hq Hn. apply PW_set_task; [exact H| |].
  - intros cid Ha Hc. destruct Hq; congruence.
  - intro Q. contradiction.
Qed.

Lemma PW_take_cancel c t : PW c -> PW (fst (take_cancel c t)).
Proof.
  intro H. unfold take_cancel. destruct (must_cancel _); cbn [fst]; [|exact H].
  apply PW_set_task; [exact H|intros cid _ Q; discriminate Q|reflexivity].
Qed.
Lemma PW_interrupt_exit c t e : PW c -> PW (fst (interrupt_exit c t e)).
Proof.
  intro H. unfold interrupt_exit. destruct (interrupted _); [|exact H].
  destruct e; cbn [fst]; try exact H.
  destruct (Nat.eqb _ _); cbn [fst]; (apply PW_set_task_same; [exact H|reflexivity|reflexivity]).
Qed.
Lemma PW_finish_task c t r : PW c -> PW (fst (finish_task c t r)).
Proof. intro H. apply PW_set_task_quiet; [exact H|left; reflexivity|discriminate]. Qed.

(* Task.cancel() settles the call future it finds pending *)
Lemma Wm_cancel_awaited c t k : Wm c (fst (cancel_awaited c t k)).
Proof.
  unfold cancel_awaited, cancel_efut. repeat dm; cbn [fst]; try (apply Wm_wv; reflexivity).
  all: apply Wm_upd_call; intro x; split; [reflexivity|right; reflexivity].
Qed.
(* a cancel that is not delivered found the awaited call future done *)
Lemma cancel_awaited_undelivered c t k cid kk :
  awaited (pc k) = Some cid -> get_call c cid = Some kk -> snd (cancel_awaited c t k) = false ->
  cfut_done (c_fut kk) = true /\ fst (cancel_awaited c t k) = c.
Proof.
  unfold cancel_awaited. intros Ha G. destruct (pc k); try discriminate; cbn in Ha; injection Ha as ->; rewrite G;
    destruct (c_fut kk); cbn; intro Q; try discriminate; auto.
Qed.

(* the flag goes up where the cancel is not delivered (the awaited future is done) and for the wait of disconnect() *)
Lemma PW_cancel_task c t : PW c -> (forall cid, awaited (pc (get_task c t)) = Some cid -> exists kk, get_call c cid = Some kk) ->
  PW (cancel_task c t).
Proof.
  intros H Hex. unfold cancel_task. destruct (task_running (get_task c t)) eqn:Er; cbn [negb]; [|exact H].
  set (k := get_task c t) in *. set (k1 := k <| ncancel := S (ncancel k) |>).
  assert (Hn : pc k <> PNone) by (intro Q; unfold task_running in Er; rewrite Q in Er; discriminate).
  pose proof (Wm_cancel_awaited c t k1) as HW. pose proof (fun cid kk => cancel_awaited_undelivered c t k1 cid kk) as HU.
  destruct (cancel_awaited c t k1) as [c1 d]. cbn [fst snd] in HW, HU.
  destruct (wm_t _ _ HW t) as [Tp Tm]. fold k in Tp, Tm. pose proof (PW_Wm _ _ HW H) as H1.
  destruct d; (apply PW_set_task; [exact H1| |intro Q; contradiction]); cbn; intros cid Ha Hm.
  - apply (w_m _ H1 t cid); [rewrite Tp; exact Ha|]. rewrite Tm. destruct (pc k); try exact Hm; discriminate.
  - destruct (Hex cid Ha) as (kk & G). destruct (HU cid kk Ha G eq_refl) as [D ->]. exists kk. auto.
Qed.

Lemma PW_new_call c k n : PW c -> PW (c <| calls := calls c ++ [k] |> <| next_cid := n |> <| waiters := waiters c ++ [c_id k] |>).
Proof.
  intros [B1 B2 B3]. set (c' := c <| calls := calls c ++ [k] |> <| next_cid := n |> <| waiters := waiters c ++ [c_id k] |>).
  assert (HT : forall t, get_task c' t = get_task c t) by (intro t; destruct t; reflexivity). constructor.
  - intros k0 I0 P. change (In k0 (calls c ++ [k])) in I0. change (In (c_id k0) (waiters c ++ [c_id k])).
    apply in_or_app. apply in_app_or in I0. destruct I0 as [I0|[<-|[]]]; [left; apply B1; assumption|right; left; reflexivity].
  - intros t cid. rewrite HT. intros Ha Hm. destruct (B2 t cid Ha Hm) as (kk & G & D).
    exists kk. split; [|exact D]. exact (find_app_some _ _ [k] _ G).
  - intro t. rewrite HT. apply B3.
Qed.

Lemma PW_register_call c owner types ap st tmo : PW c -> PW (register_call c owner types ap st tmo).
Proof. intro H. exact (PW_wv _ _ (wv_fold_add types _ _) (PW_new_call c (new_call c owner types ap st tmo) _ H)). Qed.

Lemma PW_call_begin c owner send types ap st tmo : PW c ->
  PW (fst (fst (fst (call_begin c owner send types ap st tmo)))) /\
  (forall t, pc (get_task (fst (fst (fst (call_begin c owner send types ap st tmo)))) t) = pc (get_task c t) /\
             must_cancel (get_task (fst (fst (fst (call_begin c owner send types ap st tmo)))) t) = must_cancel (get_task c t)).
Proof.
  intro H. unfold call_begin.
  pose proof (Wm_cpath _ _ _ (path_send_messages c send)) as HM. pose proof (send_messages_none c send) as K.
  destruct (send_messages c send) as [[c1 o] ex]. cbn [fst] in HM.
  destruct ex; cbn [fst]; [split; [exact (PW_Wm _ _ HM H)|exact (wm_t _ _ HM)]|].
  destruct (K c1 o eq_refl) as [-> _]. split; [exact (PW_register_call c owner types ap st tmo H)|].
  intro t. rewrite (get_task_wv _ _ t (wv_fold_add types _ _)). destruct t; split; reflexivity.
Qed.

Lemma PW_waiter_remove c cid : PW c -> uniq c -> done_at c cid -> PW (c <| waiters := filter (fun w => negb (Nat.eqb w cid)) (waiters c) |>).
Proof.
  intros [B1 B2 B3] U (kk & G & D). destruct (get_call_in _ _ _ G) as [Ikk Ekk].
  set (c' := c <| waiters := filter (fun w => negb (Nat.eqb w cid)) (waiters c) |>).
  assert (HT : forall t, get_task c' t = get_task c t) by (intro t; destruct t; reflexivity).
  constructor; [|intros t cid'; rewrite HT; apply B2|intro t; rewrite HT; apply B3].
  intros k I P. apply filter_In. split; [exact (B1 k I P)|].
  apply negb_true_iff, Nat.eqb_neq. intro Q.
  rewrite (uniq_id (calls c) k kk U I Ikk) in P by congruence. rewrite P in D. discriminate.
Qed.

Lemma PW_call_finally c cid kk : PW c -> uniq c -> get_call c cid = Some kk -> cfut_done (c_fut kk) = true -> PW (call_finally c cid).
Proof.
  intros H U G D. unfold call_finally. rewrite G.
  assert (W : Wm c (fold_left (fun a ty => remove_handler a ty (HCall cid)) (c_types kk) (upd_call c cid (fun x => x <| c_timer := None |>)))).
  { eapply Wm_trans; [|apply Wm_wv, wv_fold_remove]. apply Wm_upd_call. intro x. split; [reflexivity|left; reflexivity]. }
  apply PW_waiter_remove; [exact (PW_Wm _ _ W H)|exact (uniq_F2 wrel _ _ wrel_id (wm_c _ _ W) U)|]. apply (Wm_done _ _ cid W). exists kk. auto.
Qed.

Lemma take_cancel_clears c t : must_cancel (get_task (fst (take_cancel c t)) t) = false.
Proof.
  unfold take_cancel. destruct (must_cancel (get_task c t)) eqn:Em; cbn [fst]; [|exact Em].
  assert (Hex : exists_task c t) by (destruct t; try exact I; intro Q; cbn [get_task] in Em; rewrite Q in Em; discriminate).
  rewrite (proj1 (set_task_facts c t _ Hex)). reflexivity.
Qed.

Lemma PW_some (r : conn * list obs) c' o : Some r = Some (c', o) -> PW (fst r) -> PW c'.
Proof. intros E H. apply some_inj in E. rewrite E in H. exact H. Qed.

Lemma PW_cleanup_finish c t (mk : conn -> tres) (post : conn -> conn) : (forall x, Wm x (post x)) -> PW c ->
  PW (fst (let '(c2, o) := cleanup c in let '(c4, o2) := finish_task (post c2) t (mk c2) in (c4, o ++ o2))).
Proof.
  intros Hp H. pose proof (PW_cpath _ _ _ (path_cleanup c) H) as H2. destruct (cleanup c) as [c2 o]. cbn [fst] in H2.
  exact (PW_finish_task (post c2) t (mk c2) (PW_Wm _ _ (Hp c2) H2)).
Qed.

Lemma PW_finish_fail c e : PW c -> PW (fst (finish_fail c e)).
Proof.
  intro H. unfold finish_fail. pose proof (PW_interrupt_exit c TFinish e H) as H0. destruct (interrupt_exit c TFinish e) as [c0 e1].
  cbv zeta. apply PW_cleanup_finish; [intro x; exact (Wm_cpath _ _ _ (path_set_finish_future x))|apply (PW_wv c0); [reflexivity|exact H0]].
Qed.
Lemma PW_finish_success c : PW c -> PW (fst (finish_success c)).
Proof.
  intro H. unfold finish_success.
  set (c2 := set_finish_future _). assert (H2 : PW c2) by (apply (PW_cpath _ _ _ (path_set_finish_future _)), (PW_wv c); [reflexivity|exact H]).
  destruct (closed_or_open (cs c2)) as [Ec|Ec].
  - rewrite when_closed by exact Ec. apply (PW_cleanup_finish c2 TFinish _ (fun x => x)); [exact Wm_refl|exact H2].
  - rewrite when_open by exact Ec. apply PW_finish_task, (PW_wv c2); [reflexivity|exact H2].
Qed.

(* the task goes on to await the hello / login call that is registered next: its flag must be down *)
Lemma PW_finish_after_ready c : PW c -> must_cancel (t_finish c) = false -> PW (fst (finish_after_ready c)).
Proof.
  intros H Hm. unfold finish_after_ready. set (c0 := c <| hs_timer := None |>).
  assert (H0 : PW c0) by (apply (PW_wv c); [reflexivity|exact H]).
  destruct (closed_or_open (cs c0)) as [Ec|Ec]; [rewrite when_closed by exact Ec; apply PW_finish_fail, H0|].
  rewrite when_open by exact Ec. cbv zeta.
  match goal with |- context [call_begin ?x ?a ?b ?d ?e ?f ?g] =>
    assert (Hx : PW x) by
      (apply (PW_wv (set_task c0 TFinish (get_task c0 TFinish <| pc := PF_Hello (next_cid c0) |>))); [rewrite wv_internal_handlers; reflexivity|];
       apply PW_set_task_quiet; [exact H0|right; exact Hm|discriminate]);
    destruct (PW_call_begin x a b d e f g Hx) as [HB _]; destruct (call_begin x a b d e f g) as [[[c2 o] ex] cid] end.
  cbn [fst] in HB. destruct ex as [e|]; [|exact HB].
  pose proof (PW_finish_fail c2 e HB) as HX. destruct (finish_fail c2 e) as [c3 o3]. exact HX.
Qed.

(* at a wake-up that is enabled the awaited call future is done: its own flag, or the pending-cancel flag (mc_done) *)
Lemma awaited_done c t cid kk : PW c -> awaited (pc (get_task c t)) = Some cid -> get_call c cid = Some kk ->
  must_cancel (get_task c t) || cfut_done (c_fut kk) = true -> cfut_done (c_fut kk) = true.
Proof.
  intros H Ha G Q. apply orb_true_iff in Q. destruct Q as [Q|Q]; [|exact Q].
  exact (call_settled c cid kk G (w_m _ H t cid Ha Q)).
Qed.

Lemma PW_wake_finally c t cid kk : PW c -> uniq c -> awaited (pc (get_task c t)) = Some cid -> get_call c cid = Some kk ->
  must_cancel (get_task c t) || cfut_done (c_fut kk) = true -> PW (call_finally (fst (take_cancel c t)) cid).
Proof.
  intros H U Ha G Q. pose proof (awaited_done c t cid kk H Ha G Q) as D.
  pose proof (PW_take_cancel c t H) as H1. destruct (take_cancel_keeps c t) as [K _].
  apply (PW_call_finally _ cid kk H1); [unfold uniq; rewrite K; exact U|unfold get_call; rewrite K; exact G|exact D].
Qed.

Lemma PW_wake_finish c c' o : wake_finish c = Some (c', o) -> PW c -> uniq c -> PW c'.
Proof.
  unfold wake_finish. intros E H U.
  destruct (pc (get_task c TFinish)) as [| | | | |cid| | | |] eqn:Epc; try discriminate.
  - (* PF_Create: create_connection returned *)
    destruct (_ || _); [|discriminate].
    pose proof (PW_take_cancel c TFinish H) as H1. pose proof (take_cancel_clears c TFinish) as Hcl.
    destruct (take_cancel c TFinish) as [c1 mc]. cbn [fst get_task] in H1, Hcl.
    match type of E with (match ?d with _ => _ end) = _ => destruct d as [|e] end.
    + match type of E with context [ready ?x] => set (c2 := x) in *; assert (H2 : PW c2) by (apply (PW_wv c1); [reflexivity|exact H1]) end.
      destruct (ready c2); apply (PW_some _ _ _ E);
        first [apply PW_finish_fail, H2 | apply PW_finish_after_ready; [exact H2|exact Hcl] | idtac].
      apply PW_set_task_quiet; [exact H2|left; reflexivity|discriminate].
    + match type of E with context [finish_fail ?x e] =>
        assert (H3 : PW (fst (finish_fail x e))) by (apply PW_finish_fail; destruct (transport c1); first [exact H1|apply (PW_wv c1); [reflexivity|exact H1]]);
        destruct (finish_fail x e) as [c3 o3] end.
      apply (PW_some _ _ _ E), H3.
  - (* PF_Ready: the helper is ready, or failed *)
    destruct (_ || _); [|discriminate].
    pose proof (PW_take_cancel c TFinish H) as H1. pose proof (take_cancel_clears c TFinish) as Hcl.
    destruct (take_cancel c TFinish) as [c1 mc]. cbn [fst get_task] in H1, Hcl.
    destruct mc; [|destruct (ready c1)]; apply (PW_some _ _ _ E);
      first [apply PW_finish_fail, H1 | apply PW_finish_after_ready; [exact H1|exact Hcl]].
  - (* PF_Hello cid: hello / login answered *)
    destruct (get_call c cid) as [kk|] eqn:Eg; [|discriminate].
    destruct (_ || _) eqn:Eguard; [|discriminate].
    pose proof (PW_wake_finally c TFinish cid kk H U ltac:(rewrite Epc; reflexivity) Eg Eguard) as H3.
    destruct (take_cancel c TFinish) as [c1 mc]. cbn [fst] in H3.
    match type of E with (match ?d with _ => _ end) = _ => destruct d as [|e] end; [destruct (check_hello_login _ _)|];
      apply (PW_some _ _ _ E); first [apply PW_finish_fail, H3 | apply PW_finish_success, H3].
Qed.

(* disconnect() goes on to await the response to its request: its flag must be down *)
Lemma PW_disconnect_after_wait c : PW c -> must_cancel (t_disc c) = false -> PW (fst (disconnect_after_wait c)).
Proof.
  intros H Hm. unfold disconnect_after_wait. set (c1 := c <| expected_disconnect := true |>).
  assert (H0 : PW c1) by (apply (PW_wv c); [reflexivity|exact H]).
  assert (CF : forall x, PW x -> PW (fst (let '(c3, o3) := cleanup x in let '(c4, o4) := finish_task c3 TDisc TOk in (c4, o3 ++ o4))))
    by (intros x Hx; exact (PW_cleanup_finish x TDisc (fun _ => TOk) (fun y => y) Wm_refl Hx)).
  destruct (handshake_complete c1); [|apply CF, H0].
  match goal with |- context [call_begin ?x ?a ?b ?d ?e ?f ?g] =>
    destruct (PW_call_begin x a b d e f g H0) as [HB HT]; destruct (call_begin x a b d e f g) as [[[c2 o] ex] cid] end.
  cbn [fst] in HB, HT. destruct ex as [e|].
  - (* the request could not be sent: the task ends, after _cleanup if the error is one of the library *)
    assert (FT : PW (fst (let '(c3, o3) := finish_task c2 TDisc (TRaise e) in (c3, o ++ o3))))
      by (pose proof (PW_finish_task c2 TDisc (TRaise e) HB) as H4; destruct (finish_task c2 TDisc (TRaise e)) as [c4 o4]; exact H4).
    destruct e; try exact FT.
    specialize (CF c2 HB). destruct (cleanup c2) as [c3 o3]. destruct (finish_task c3 TDisc TOk) as [c4 o4]. exact CF.
  - (* the request is sent: the task awaits the response, its flag down *)
    cbn [fst]. apply PW_set_task_quiet; [exact HB|right; exact (eq_trans (proj2 (HT TDisc)) Hm)|discriminate].
Qed.

Lemma PW_wake_disc c c' o : wake_disc c = Some (c', o) -> PW c -> uniq c -> PW c'.
Proof.
  unfold wake_disc. intros E H U.
  destruct (pc (get_task c TDisc)) as [| | | | | | |cid| |] eqn:Epc; try discriminate.
  - (* PD_Wait: the wait for the connect phase is over *)
    destruct (_ || _); [|discriminate].
    pose proof (PW_take_cancel c TDisc H) as H1. pose proof (take_cancel_clears c TDisc) as Hcl.
    destruct (take_cancel c TDisc) as [c1 mc]. cbn [fst get_task] in H1, Hcl.
    destruct mc; apply (PW_some _ _ _ E); [apply PW_finish_task, (PW_wv c1); [reflexivity|exact H1]|].
    apply PW_disconnect_after_wait; repeat dm; first [exact Hcl | apply (PW_wv c1); [reflexivity|exact H1]].
  - (* PD_Resp cid: the response arrived, or the call failed *)
    destruct (get_call c cid) as [kk|] eqn:Eg; [|discriminate].
    destruct (_ || _) eqn:Eguard; [|discriminate].
    pose proof (PW_wake_finally c TDisc cid kk H U ltac:(rewrite Epc; reflexivity) Eg Eguard) as H3.
    destruct (take_cancel c TDisc) as [c1 mc]. cbn [fst] in H3.
    pose proof (PW_cleanup_finish _ TDisc (fun _ => TOk) (fun y => y) Wm_refl H3) as CF.
    destruct (cleanup (call_finally c1 cid)) as [c3 o3]. destruct (finish_task c3 TDisc TOk) as [c4 o4].
    match type of E with (match ?d with _ => _ end) = _ => destruct d as [|[]] end; apply (PW_some _ _ _ E);
      first [exact CF | apply PW_finish_task, H3].
Qed.

Lemma PW_wake_call c cid c' o : wake_call c cid = Some (c', o) -> PW c -> CI c -> PW c'.
Proof.
  unfold wake_call. intros E H HC.
  destruct (pc (get_task c (TCall cid))) as [| | | | | | | |x|] eqn:Epc; try discriminate.
  destruct (get_call c cid) as [kk|] eqn:Eg; [|discriminate].
  destruct (_ || _) eqn:Eguard; [|discriminate].
  (* the task of call cid awaits that call *)
  assert (Hc : x = cid) by (apply (awaited_call_id c cid x HC); rewrite Epc; reflexivity).
  subst x.
  pose proof (PW_wake_finally c (TCall cid) cid kk H (f_uniq _ (i_f1 _ _ HC)) ltac:(rewrite Epc; reflexivity) Eg Eguard) as H3.
  destruct (take_cancel c (TCall cid)) as [c1 mc]. apply (PW_some _ _ _ E), PW_finish_task, H3.
Qed.

Lemma PW_pc c c' t p : wv c' = wv (set_task c t (get_task c t <| pc := p |>)) -> awaited p = None -> p <> PNone -> PW c -> PW c'.
Proof. intros E Ha Hn H. apply (PW_wv _ _ E), PW_set_task_quiet; [exact H|left; exact Ha|exact Hn]. Qed.

(* Every move keeps PW under a label that carries no data (dispatch needs unique ids: Wm_dpath) and whose task, if it runs,
   cancels or interrupts one, is start_connection: that coroutine never awaits a call, so its flag means nothing to mc_done,
   and the finally block of a call is not among its moves.  The other moves that are unsafe on their own (SHsDone, SPcDiscResp)
   belong to finish_connection and disconnect(). *)
Lemma PW_step l c o c' : step_atom l c o c' -> ~ carries_data l -> (forall t, actor l t -> t = TStart) ->
  PW c /\ awaited (pc (t_start c)) = None -> PW c' /\ awaited (pc (t_start c')) = None.
Proof.
  intros A Nd Na [H Ist].
  assert (Nr : forall t, runs l t -> t = TStart) by (intros t R; exact (Na t (or_introl R))).
  enough (K : Wm c c' \/ (PW c' /\ awaited (pc (t_start c')) = None)).
  { destruct K as [W|K]; [|exact K]. split; [exact (PW_Wm _ _ W H)|].
    change (awaited (pc (get_task c' TStart)) = None). rewrite (proj1 (wm_t _ _ W TStart)). exact Ist. }
  (* a move that leaves wv alone is in Wm; the moves of finish_connection, disconnect() and a request are not moves of l *)
  destruct A; try (left; apply Wm_wv; reflexivity);
    try match goal with
        | R : runs l TFinish |- _ => discriminate (Nr _ R)
        | R : runs l TDisc |- _ => discriminate (Nr _ R)
        | Q : l = LDisconnect |- _ => discriminate (Nr TDisc ltac:(rewrite Q; reflexivity))
        | S : starts_call l |- _ => destruct S as (? & ? & ? & ? & ? & ->); discriminate (Nr (TCall 0) (ex_intro _ 0%nat eq_refl))
        end.
  - (* SClose *) left. match goal with X : close_atom _ _ _ |- _ => exact (Wm_close _ _ _ X) end.
  - (* SData *) match goal with X : carries_data l |- _ => destruct (Nd X) end.
  - (* SNewCall: the new call is pending, and a waiter *)
    right. split; [apply PW_register_call, H|].
    change (awaited (pc (get_task (register_call c owner types ap st tmo) TStart)) = None).
    unfold register_call. rewrite (get_task_wv _ _ TStart (wv_fold_add types _ _)). exact Ist.
  - (* SCallFinally: start_connection awaits no call *)
    exfalso. match goal with R : runs l _, Aw : awaits _ _ _ |- _ => rewrite (Nr _ R) in Aw; cbn [get_task] in Aw;
      destruct (pc (t_start c)); cbn in Ist, Aw; try discriminate Ist; contradiction end.
  - (* SCallTimeout: a pending future gets the time-out *)
    left. apply Wm_upd_call. intro x. unfold wrel. destruct (c_fut x) eqn:Ef; cbn; rewrite ?Ef; auto.
  - (* SCallCancel: a pending call future is cancelled *)
    left. apply Wm_upd_call. intro x. split; [reflexivity|right; reflexivity].
  - (* STaskCancel: Task.cancel() finds start_connection running; whatever happens to its flag, it awaits no call *)
    match goal with Ha : cancels l _ |- _ => rewrite (Na _ (or_intror Ha)) in * end. cbn [get_task] in *.
    right. split; [|exact Ist].
    apply PW_set_task; [exact H|intros cid Q; cbn in Q; rewrite Ist in Q; discriminate Q|].
    intro Q. cbn in Q. match goal with Er : task_running _ = true |- _ => unfold task_running in Er; rewrite Q in Er; discriminate Er end.
  - (* STask: the plumbing of start_connection, which awaits no call *)
    match goal with Ha : runs l _, Hm : tmove _ _ |- _ => rewrite (Nr _ Ha) in *; pose proof (tmove_pc _ _ Hm) as Ep; cbn [get_task] in Ep, Hm end.
    right. split; [|change (awaited (pc k') = None); rewrite Ep; exact Ist].
    apply PW_set_task; [exact H|intros cid Q; rewrite Ep, Ist in Q; discriminate Q|].
    intro Q. rewrite Ep in Q. pose proof (w_f _ H TStart Q) as Fk.
    match goal with Hm : tmove _ _ |- _ => destruct Hm end; cbn; try exact Fk. reflexivity.
  - (* STaskDone *)
    match goal with R : runs l _ |- _ => rewrite (Nr _ R) end. right. split; [exact (PW_finish_task c TStart r H)|reflexivity].
  - (* SUserCancel: a mark on the record of start_connection, like the next three *)
    match goal with Q : l = LCancel _ |- _ => rewrite (Na t ltac:(rewrite Q; right; reflexivity)) end.
    left. apply Wm_tasks; [intro t'; destruct t'; split; reflexivity|reflexivity|reflexivity].
  - (* SIntrStart *) left. apply Wm_tasks; [intro t; destruct t; split; reflexivity|reflexivity|reflexivity].
  - (* SIntrFinish *) left. apply Wm_tasks; [intro t; destruct t; split; reflexivity|reflexivity|reflexivity].
  - (* SConnExpire *) left. apply Wm_tasks; [intro t; destruct t; split; reflexivity|reflexivity|reflexivity].
  - (* SStart *)
    right. split; [apply (PW_pc c _ TStart PS_Resolve); [reflexivity|reflexivity|discriminate|exact H]|reflexivity].
  - (* SStartTcp *)
    right. split; [apply (PW_pc c _ TStart (PS_Tcp g)); [reflexivity|reflexivity|discriminate|exact H]|reflexivity].
  - (* SSockOpen *)
    right. split; [apply PW_finish_task, (PW_wv c); [reflexivity|exact H]|reflexivity].
  - (* SFinish: it awaits no call yet *)
    right. split; [apply (PW_pc c _ TFinish PF_Create); [reflexivity|reflexivity|discriminate|exact H]|exact Ist].
  - (* SSub *) left. apply Wm_wv, wv_add.
Qed.

Lemma PW_spath l c o c' : spath l c o c' -> ~ carries_data l -> (forall t, actor l t -> t = TStart) ->
  PW c -> awaited (pc (t_start c)) = None -> PW c'.
Proof.
  intros P Nd Na H Ist.
  exact (proj1 (path_inv (step_atom l) _ (fun x ox x' A => PW_step l x ox x' A Nd Na) _ _ _ P (conj H Ist))).
Qed.

(* the labels of PW_step *)
Definition calm (l : label) : Prop :=
  match l with
  | LDisconnect | LCallStart _ _ _ _ _ | LCancel _ | LData _ | LIntr false => False
  | LWake t => t = TStart
  | _ => True
  end.
Lemma calm_data l : calm l -> ~ carries_data l.
Proof. intros C [items ->]. exact C. Qed.
Lemma calm_actor l t : calm l -> actor l t -> t = TStart.
Proof.
  intros C [R|R]; destruct l; cbn in C, R; try contradiction; try congruence.
  - (* LIntr *) destruct is_start; [exact R|contradiction].
  - (* LTimer *) destruct k; try contradiction; exact R.
Qed.

Lemma PW_call_task c cid : PW c -> PW (c <| call_tasks := call_tasks c ++ [(cid, task0 <| pc := PC_Wait cid |>)] |>).
Proof.
  intros [B1 B2 B3]. set (c0 := c <| call_tasks := _ |>).
  assert (HT : forall t, get_task c0 t = get_task c t \/ get_task c0 t = task0 <| pc := PC_Wait cid |>).
  { intro t. destruct t as [| | |x]; try (left; reflexivity). unfold c0. cbn [get_task call_tasks set]. cbn [call_tasks set].
    destruct (find (fun p => Nat.eqb (fst p) x) (call_tasks c)) as [q|] eqn:Eq.
    - left. rewrite (find_app_some _ _ _ _ Eq). reflexivity.
    - rewrite (find_app_none _ _ _ Eq). cbn [find fst]. destruct (Nat.eqb cid x); [right|left]; reflexivity. }
  constructor; [exact B1| |]; intro t; destruct (HT t) as [E|E]; rewrite E; [apply B2|discriminate|apply B3|reflexivity].
Qed.

Lemma awaited_call_exists c t cid : CI c -> awaited (pc (get_task c t)) = Some cid -> exists kk, get_call c cid = Some kk.
Proof.
  intros HC Ha. assert (Hts : t <> TStart) by (intro Q; subst t; cbn [get_task] in Ha; rewrite (i_st _ _ HC) in Ha; discriminate).
  destruct (i_aw _ _ HC t cid Hts (fun F => F) Ha) as (kk & G & _). exists kk. exact G.
Qed.

Theorem step_PW c l c' o : CI c -> PW c -> step c l = Some (c', o) -> PW c'.
Proof.
  intros HC H E. pose proof (f_uniq _ (i_f1 _ _ HC)) as U.
  assert (Hcalm : calm l -> PW c').
  { intro C. exact (PW_spath l c o c' (step_path _ _ _ _ E) (calm_data l C) (fun t => calm_actor l t C) H (i_st _ _ HC)). }
  destruct l; try exact (Hcalm I); cbn [step] in E.
  - (* LDisconnect: a coroutine that has not started carries no flag *)
    destruct (pc (t_disc c)) eqn:Ep; try discriminate. pose proof (w_f _ H TDisc Ep) as Hm.
    destruct (finish_fut c); apply (PW_some _ _ _ E);
      try (apply PW_disconnect_after_wait; [|exact Hm]); (apply (PW_pc c _ TDisc PD_Wait); [reflexivity|reflexivity|discriminate|exact H]).
  - (* LCallStart *)
    match type of E with context [call_begin ?x ?a ?b ?d ?e ?f ?g] =>
      destruct (PW_call_begin x a b d e f g (PW_call_task c (next_cid c) H)) as [HB _]; destruct (call_begin x a b d e f g) as [[[c1 o1] ex] cid'] end.
    cbn [fst] in HB. destruct ex as [e|]; apply (PW_some _ _ _ E); [|exact HB].
    cbn [fst]. apply PW_set_task_quiet; [apply (PW_wv c1); [reflexivity|exact HB]|left; reflexivity|discriminate].
  - (* LCancel *)
    destruct (task_running _); [|apply (PW_some _ _ _ E), H]. apply (PW_some _ _ _ E). cbn [fst].
    set (k' := get_task c t <| user_cancelled := true |>).
    apply PW_cancel_task; [apply PW_set_task_same; [exact H|reflexivity|reflexivity]|].
    intros cid Ha. unfold get_call. rewrite (proj1 (set_task_wfields c t k')). apply (awaited_call_exists c t cid HC).
    destruct (get_set_task c t k' t) as [Et|[_ Et]]; rewrite Et in Ha; exact Ha.
  - (* LData *)
    destruct (transport c); try discriminate. destruct (made c); try discriminate.
    pose proof (PW_Wm _ _ (Wm_dpath _ _ _ (path_data_loop items c) U) H) as H1. destruct (data_loop c items) as [[c1 o1] ex].
    destruct ex as [e|]; [destruct (transport c1)|]; apply (PW_some _ _ _ E); first [exact H1|apply (PW_wv c1); [reflexivity|exact H1]].
  - (* LWake *)
    destruct t; [exact (Hcalm eq_refl)|exact (PW_wake_finish _ _ _ E H U)|exact (PW_wake_disc _ _ _ E H U)|exact (PW_wake_call _ _ _ _ E H HC)].
  - (* LIntr: the interrupt block of finish_connection cancels its task *)
    destruct is_start; [exact (Hcalm I)|]. destruct (finish_fut c), (intr_finish c); try discriminate; apply (PW_some _ _ _ E); [|exact H].
    apply PW_cancel_task; [|exact (fun cid => awaited_call_exists c TFinish cid HC)].
    apply (PW_wv (set_task c TFinish (t_finish c <| interrupted := true |>))); [reflexivity|]. apply PW_set_task_same; [exact H|reflexivity|reflexivity].
Qed.

Lemma PW_init n e ka scr : PW (init n e ka scr).
Proof.
  constructor.
  - intros k [].
  - intros t cid Ha. destruct t; cbn in Ha; discriminate.
  - intros t _. destruct t; reflexivity.
Qed.
Lemma run_PW ls : forall c c' os, CI c -> PW c -> run c ls = Some (c', os) -> CI c' /\ PW c'.
Proof.
  intros c c' os HC H. apply (run_invariant (fun x => CI x /\ PW x)); [|split; assumption].
  intros x l x' o [A B] E. split; [exact (proj1 (step_cancel x l x' o A E))|exact (step_PW x l x' o A B E)].
Qed.

Theorem pending_call_is_waiter n e ka scr ls c os k :
  run (init n e ka scr) ls = Some (c, os) -> In k (calls c) -> c_fut k = CPending -> In (c_id k) (waiters c).
Proof. intros E. destruct (run_PW ls _ _ _ (CI_init n e ka scr) (PW_init n e ka scr) E) as [_ H]. apply (w_p _ H). Qed.

Theorem closed_no_pending_call n e ka scr ls c os k :
  run (init n e ka scr) ls = Some (c, os) -> cs c = Closed -> In k (calls c) -> c_fut k <> CPending.
Proof.
  intros E Hc I P. pose proof (pending_call_is_waiter n e ka scr ls c os k E I P) as Hw.
  assert (Hr : reachable c) by (exists n, e, ka, scr, ls, os; exact E).
  destruct (closed_released c Hr Hc) as (_ & _ & W & _). rewrite W in Hw. destruct Hw.
Qed.

Theorem closed_call_task_resumes n e ka scr ls c os t cid :
  run (init n e ka scr) ls = Some (c, os) -> cs c = Closed -> awaited (pc (get_task c t)) = Some cid ->
  ready_now c t /\ step c (LWake t) <> None.
Proof.
  intros E Hc Ha. destruct (run_GA ls _ _ _ (CI_init n e ka scr) (GA_init n e ka scr) E) as [HC HG].
  destruct (awaited_call_exists c t cid HC Ha) as (kk & G).
  destruct (get_call_in _ _ _ G) as [Ik _].
  pose proof (closed_no_pending_call n e ka scr ls c os kk E Hc Ik) as Hn.
  assert (Hd : cfut_done (c_fut kk) = true) by (destruct (c_fut kk); try reflexivity; exfalso; apply Hn; reflexivity).
  assert (Hr : ready_now c t).
  { apply ready_now_settled. right. apply (awaited_settled c _ cid Ha). exists kk. split; assumption. }
  split; [exact Hr|]. apply ready_can_wake; try assumption.
  unfold task_running. destruct (pc (get_task c t)); cbn in Ha; try discriminate; reflexivity.
Qed.
