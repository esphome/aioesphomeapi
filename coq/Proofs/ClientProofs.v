(* C19, at the level of runs: whenever no session is alive and no connect phase is in progress, the client holds no connection
   (so the next start_connection is accepted) - for every sequence of client calls and connection events. *)
From Coq Require Import NArith ZArith List Bool Lia.
From RecordUpdate Require Import RecordSet.
From Verif Require Import Generated.GenConstants Model.Conn Model.Client Proofs.ConnMoves Proofs.ConnCore Proofs.ConnStep Proofs.ConnStep3 Proofs.ConnRun Proofs.ConnWedge.
Import ListNotations RecordSetNotations.
Open Scope Z_scope.
Open Scope list_scope.

Lemma Clr_clears o : Clr o -> clears o = true.
Proof.
  unfold clears. intro H. apply existsb_exists.
  destruct H as [[b H]|[[e H]|[[e H]|H]]]; eexists; (split; [exact H|reflexivity]).
Qed.

(* the client's invariant: its connection object is well formed, and while the client refers to it, it is open or one of its
   connect phases is still in flight *)
Definition W' (k : client) : Prop := cl_has k = true -> cs (cl_conn k) <> Closed \/ SF (cl_conn k) = true.
Definition CI (k : client) : Prop := WI (cl_conn k) /\ W' k.

Lemma WI_fresh c : Inv c -> cs c = Init -> transport c = TNone -> ping_timer c = None -> pong_timer c = None -> WI c.
Proof.
  intros I Hs Ht Q1 Q2. split; [exact I|]. split; [left; exact Ht|]. split.
  - intros [Q|Q]; contradiction.
  - intro Q. congruence.
Qed.

Lemma WI_init nz ex ka scr t wf : WI ((init nz ex ka scr) <| now := t |> <| write_fails := wf |>).
Proof. apply WI_fresh; try reflexivity. eapply Inv_core_eq; [|apply (Inv_init nz ex ka scr)]. reflexivity. Qed.

Lemma CI_init nz ex ka scr : CI (client_init nz ex ka scr).
Proof.
  split.
  - unfold client_init. cbn [cl_conn]. apply WI_fresh; try reflexivity. apply Inv_init.
  - intro H. discriminate H.
Qed.

Lemma after_W' k c' o l : WI (cl_conn k) -> W' k -> step (cl_conn k) l = Some (c', o) -> l <> LForce ->
  WI c' /\ (cl_has k = true -> clears o = false -> cs c' <> Closed \/ SF c' = true).
Proof.
  intros W Hw E Hl. destruct (step_W (cl_conn k) l c' o W E Hl) as [W1 N]. split; [exact W1|].
  intros Hh Hc. destruct (cs c') eqn:Ecs; try (left; discriminate).
  right. destruct (N Ecs (Hw Hh)) as [Q|Q]; [exact Q|].
  apply Clr_clears in Q. congruence.
Qed.

Lemma step_WI_force c c' o : WI c -> step c LForce = Some (c', o) -> WI c'.
Proof.
  intros W E. pose proof W as (I & _). destruct (step_ok c LForce c' o E I) as [I' _].
  exact (S_WI c c' o W I' (Mw_Mv c c' o I I' (Mw_spath LForce c o c' Logic.I (step_path c LForce c' o E)))).
Qed.

Lemma CI_after k c' o : WI c' -> (cl_has k = true -> clears o = false -> cs c' <> Closed \/ SF c' = true) -> CI (fst (after k c' o)).
Proof.
  intros W1 H. unfold after. cbn [fst]. split; [exact W1|]. unfold W'. cbn [cl_has cl_conn set].
  destruct (clears o) eqn:Ec; [intro Q; discriminate Q|]. intro Hh. apply H; [exact Hh|reflexivity].
Qed.

Lemma fst_of_eq {A B} (p : A * B) a b : p = (a, b) -> fst p = a.
Proof. intros ->. reflexivity. Qed.

(* a call that the client refuses, or that finds no connection, changes nothing *)
Lemma CI_refused k (x : list cobs) k' o : CI k -> Some (k, x) = Some (k', o) -> CI k'.
Proof. intros H E. apply some_pair_inv in E. destruct E as [<- _]. exact H. Qed.

(* the client lets its connection take one step, other than a forced close, and looks at the observations *)
Lemma CI_conn_step k l k' o : CI k -> l <> LForce ->
  match step (cl_conn k) l with Some (c1, o1) => Some (after k c1 o1) | None => None end = Some (k', o) -> CI k'.
Proof.
  intros [W Hw] Hl E. destruct (step (cl_conn k) l) as [[c1 o1]|] eqn:Es; [|discriminate].
  apply some_inj in E. rewrite <- (fst_of_eq _ _ _ E).
  destruct (after_W' k c1 o1 l W Hw Es Hl) as [W1 H1]. apply CI_after; assumption.
Qed.

Theorem cstep_CI k l k' o : CI k -> cstep k l = Some (k', o) -> CI k'.
Proof.
  intros H E. pose proof H as [W Hw]. destruct l; cbn [cstep] in E.
  - (* CStart *)
    destruct (cl_has k) eqn:Eh; [exact (CI_refused _ _ _ _ H E)|].
    set (c0 := new_conn k (now (cl_conn k))) in *.
    assert (W0 : WI c0) by (unfold c0, new_conn; destruct (cl_cfg k) as [[[nz ex] ka] scr]; apply WI_init).
    assert (Hinit : cs c0 = Init) by (unfold c0, new_conn; destruct (cl_cfg k) as [[[nz ex] ka] scr]; reflexivity).
    destruct (step c0 LStart) as [[c1 o1]|] eqn:Es; [|discriminate].
    apply some_pair_inv in E. destruct E as [<- _].
    destruct (step_W c0 LStart c1 o1 W0 Es ltac:(discriminate)) as [W1 N].
    apply CI_after; [exact W1|]. intros _ Hc. destruct (cs c1) eqn:Ecs; try (left; discriminate).
    assert (Hn0 : cs c0 <> Closed) by (rewrite Hinit; discriminate).
    right. destruct (N Ecs (or_introl Hn0)) as [Q|Q]; [exact Q|apply Clr_clears in Q; congruence].
  - (* CFinish *)
    destruct (cl_has k) eqn:Eh; [|discriminate].
    destruct (step (cl_conn k) (LFinish lg)) as [[c1 o1]|] eqn:Es; [|discriminate].
    apply some_inj in E.
    destruct (after_W' k c1 o1 (LFinish lg) W Hw Es ltac:(discriminate)) as [W1 H1].
    destruct (existsb (fun x => match x with ORaise _ => true | _ => false end) o1).
    + rewrite <- (fst_of_eq _ _ _ E). apply CI_after; [exact W1|]. cbn [cl_has set]. intro Q. discriminate Q.
    + rewrite <- (fst_of_eq _ _ _ E). apply CI_after; [exact W1|exact H1].
  - (* CDisconnect *)
    destruct (cl_has k) eqn:Eh; [|exact (CI_refused _ _ _ _ H E)].
    destruct force; [|exact (CI_conn_step k LDisconnect k' o H ltac:(discriminate) E)].
    destruct (step (cl_conn k) LForce) as [[c1 o1]|] eqn:Es; [|discriminate].
    apply some_pair_inv in E. destruct E as [<- _].
    split; [exact (step_WI_force _ _ _ W Es)|]. intro Q. discriminate Q.
  - (* CCommand *)
    destruct (cl_has k); [|exact (CI_refused _ _ _ _ H E)].
    destruct (is_connected (cl_conn k)); [|exact (CI_refused _ _ _ _ H E)].
    exact (CI_conn_step k (LSend tys) k' o H ltac:(discriminate) E).
  - (* CRequest *)
    destruct (cl_has k); [|exact (CI_refused _ _ _ _ H E)].
    destruct (is_connected (cl_conn k)); [|exact (CI_refused _ _ _ _ H E)].
    refine (CI_conn_step k _ k' o H _ E). discriminate.
  - (* CConn *)
    destruct (allowed_conn_label l) eqn:Ea; [|discriminate].
    assert (Hl : l <> LForce) by (intro Q; subst l; discriminate Ea).
    exact (CI_conn_step k l k' o H Hl E).
Qed.

Theorem crun_CI ls : forall k k' os, CI k -> crun k ls = Some (k', os) -> CI k'.
Proof.
  induction ls as [|l ls IH]; intros k k' os H E; cbn [crun] in E.
  - apply some_pair_inv in E. destruct E as [<- _]. exact H.
  - destruct (cstep k l) as [[k1 o1]|] eqn:Es; [|discriminate].
    destruct (crun k1 ls) as [[k2 os2]|] eqn:Er; [|discriminate].
    apply some_pair_inv in E. destruct E as [<- _]. eapply IH; [|exact Er]. eapply cstep_CI; eassumption.
Qed.

(* never wedged: in every state the client can reach, if its connection is closed and neither connect phase is in flight, the
   client refers to no connection - and start_connection is then accepted *)
Theorem never_wedged nz ex ka scr ls k os :
  crun (client_init nz ex ka scr) ls = Some (k, os) ->
  cs (cl_conn k) = Closed -> SF (cl_conn k) = false -> cl_has k = false.
Proof.
  intros E Hc Hs. destruct (crun_CI ls _ _ _ (CI_init nz ex ka scr) E) as [_ Hw].
  destruct (cl_has k) eqn:Eh; [|reflexivity]. destruct (Hw Eh) as [Q|Q]; congruence.
Qed.
