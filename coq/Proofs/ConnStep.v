(* StepOK c c': a transition from c to c' keeps the invariant Inv (Proofs/ConnCore.v) and moves the visible state forward only.
   Here the wake-ups of start_connection; Proofs/ConnStep2.v: the other coroutines; Proofs/ConnStep3.v: every label. *)
From Coq Require Import NArith ZArith List Bool Lia Relations.
From RecordUpdate Require Import RecordSet.
From Verif Require Import Model.Conn Proofs.ConnMoves Proofs.ConnCore Proofs.ConnSync.
Import ListNotations RecordSetNotations.
Open Scope Z_scope.
Open Scope list_scope.

Lemma Inv_core_eq c c' : core_of c' = core_of c -> Inv c -> Inv c'.
Proof. unfold Inv. intros ->. auto. Qed.

Definition StepOK (c c' : conn) : Prop := Inv c -> Inv c' /\ trans_ok (cs c) (cs c').

Lemma closed_trans s : trans_ok s Closed.
Proof. unfold trans_ok. auto. Qed.
Lemma StepOK_closed c c' : Inv c' -> cs c' = Closed -> trans_ok (cs c) (cs c').
Proof. intros _ ->. apply closed_trans. Qed.
Lemma closing_ok s c' : Inv c' /\ cs c' = Closed -> Inv c' /\ trans_ok s (cs c').
Proof. intros [A B]. split; [exact A|rewrite B; apply closed_trans]. Qed.

Lemma StepOK_core_eq c c' : core_of c' = core_of c -> StepOK c c'.
Proof.
  intros E H. split; [eapply Inv_core_eq; eassumption|].
  left. apply (f_equal k_cs) in E. exact E.
Qed.

(* a step made after synchronous moves; a closed connection stays closed *)
Lemma StepOK_after c c1 c' : R (core_of c) (core_of c1) -> StepOK c1 c' -> StepOK c c'.
Proof.
  intros HR K H. destruct (R_ok _ _ HR) as (Hoc & _ & _ & _ & _ & HI). destruct (K (HI H)) as [A B]. split; [exact A|].
  destruct Hoc as [Q|Q]; cbn [core_of k_cs] in Q; rewrite Q in B; [exact B|].
  destruct B as [->|[[? _]|[[? _]|[[? _]| ->]]]]; try discriminate; apply closed_trans.
Qed.

Lemma StepOK_R c c' : R (core_of c) (core_of c') -> StepOK c c'.
Proof. intro HR. apply (StepOK_after c c' c' HR), StepOK_core_eq. reflexivity. Qed.

Lemma core_take_cancel c t : core_of (fst (take_cancel c t)) = core_of c.
Proof.
  unfold take_cancel. destruct (must_cancel (get_task c t)); cbn [fst]; [|reflexivity].
  apply core_set_task_same. reflexivity.
Qed.
Lemma core_timeout_exit c t e : core_of (fst (timeout_exit c t e)) = core_of c.
Proof.
  unfold timeout_exit. destruct (expiring (get_task c t)); [|reflexivity].
  destruct e; cbn [fst]; try (apply core_set_task_same; reflexivity).
  destruct (Nat.eqb _ 0); cbn [fst]; apply core_set_task_same; reflexivity.
Qed.
Lemma core_interrupt_exit c t e : core_of (fst (interrupt_exit c t e)) = core_of c.
Proof.
  unfold interrupt_exit. destruct (interrupted (get_task c t)); [|reflexivity].
  destruct e; cbn [fst]; try reflexivity.
  destruct (Nat.eqb _ 0); cbn [fst]; apply core_set_task_same; reflexivity.
Qed.

Definition with_pcs (k : core) (ps pf pd : tpc) : core :=
  mkCore (k_cs k) (k_conn k) (k_hs k) (k_armed k) (k_stops k) (k_ever k) (k_ping k) (k_pong k) (k_waiters k)
         (k_socket k) (k_helper k) ps pf pd (k_expected k).

Lemma InvK_with_pcs k ps pf pd :
  InvK k ->
  (match ps with PS_Resolve | PS_Tcp _ => k_cs k = Init \/ k_cs k = Closed | _ => True end) ->
  (match pf with
   | PF_Create | PF_Ready => k_cs k = SockOpen \/ k_cs k = Closed
   | PF_Hello _ => k_cs k = HsDone \/ k_cs k = Closed
   | _ => True end) ->
  (k_cs k = Closed -> k_helper k = HNone \/ pf = PF_Ready) ->
  InvK (with_pcs k ps pf pd).
Proof.
  intros (F & J & S & C) H1 H2 H3. split; [exact F|]. split; [exact (conj H1 H2)|]. split; [exact S|].
  intro Hc. destruct (C Hc) as (C1 & C2 & C3 & C4 & _). exact (conj C1 (conj C2 (conj C3 (conj C4 (H3 Hc))))).
Qed.

Lemma core_finish_task c t r :
  core_of (fst (finish_task c t r)) =
  match t with
  | TStart => with_pcs (core_of c) (PDone r) (pc (t_finish c)) (pc (t_disc c))
  | TFinish => with_pcs (core_of c) (pc (t_start c)) (PDone r) (pc (t_disc c))
  | TDisc => with_pcs (core_of c) (pc (t_start c)) (pc (t_finish c)) (PDone r)
  | TCall _ => core_of c
  end.
Proof. destruct t; reflexivity. Qed.

Lemma closed_helper k : InvK k -> k_cs k = Closed -> k_helper k = HNone \/ k_pf k = PF_Ready.
Proof. intros (_ & _ & _ & C) Hc. exact (proj2 (proj2 (proj2 (proj2 (C Hc))))). Qed.

(* finishing a task after the connection was cleaned up, or a task the invariant does not constrain *)
Lemma finish_task_ok c t r :
  Inv c -> (t = TFinish -> cs c = Closed -> helper c = HNone) -> Inv (fst (finish_task c t r)) /\ cs (fst (finish_task c t r)) = cs c.
Proof.
  intros H Hf. split; [|destruct t; reflexivity].
  unfold Inv. rewrite core_finish_task. pose proof H as (_ & [J1 J2] & _).
  destruct t; [| | |exact H]; apply InvK_with_pcs; try exact H; try exact J1; try exact J2; try exact I.
  - (* TStart *) exact (closed_helper _ H).
  - (* TFinish: its program point no longer excuses a helper *) intro Hc. left. exact (Hf eq_refl Hc).
  - (* TDisc *) exact (closed_helper _ H).
Qed.

(* _cleanup, then the task ends: the tail of every failing connect phase and of disconnect().  It may start from a state that
   differs from one satisfying the invariant in what _cleanup resets anyway (a helper or socket just assigned) *)
Lemma cleanup_finish_ok c0 c t r (post : conn -> conn) :
  Inv c0 -> closeK (core_of c) = closeK (core_of c0) -> (forall x, core_of (post x) = core_of x) ->
  let c' := fst (finish_task (post (fst (cleanup c))) t r) in Inv c' /\ cs c' = Closed.
Proof.
  intros H0 E Hpost. pose proof (core_cleanup c) as Ecl. rewrite E, <- Hpost in Ecl. set (c3 := post (fst (cleanup c))) in *.
  assert (H3 : Inv c3) by (unfold Inv; rewrite Ecl; apply InvK_closeK; exact H0).
  assert (Hc3 : cs c3 = Closed) by (change (k_cs (core_of c3) = Closed); rewrite Ecl; apply closeK_cs).
  assert (Hh3 : helper c3 = HNone) by (change (k_helper (core_of c3) = HNone); rewrite Ecl; apply closeK_helper).
  destruct (finish_task_ok c3 t r H3) as [A B]; [auto|]. split; [exact A|congruence].
Qed.

Lemma start_fail_ok c e : Inv c -> Inv (fst (start_fail c e)) /\ cs (fst (start_fail c e)) = Closed.
Proof.
  intro H. unfold start_fail.
  pose proof (core_interrupt_exit c TStart e) as E0. destruct (interrupt_exit c TStart e) as [c0 e1]. cbn [fst] in E0.
  set (c1 := c0 <| intr_start := IExited |> <| conn_timer := None |>).
  pose proof (cleanup_finish_ok c c1 TStart (TRaise (wrap_fatal (fst (cleanup c1)) e1)) set_start_future H (f_equal closeK E0)
                core_set_start_future) as K.
  destruct (cleanup c1) as [c2 o]. exact K.
Qed.

Lemma finish_fail_from c0 c e :
  Inv c0 -> closeK (core_of c) = closeK (core_of c0) -> Inv (fst (finish_fail c e)) /\ cs (fst (finish_fail c e)) = Closed.
Proof.
  intros H E. unfold finish_fail.
  pose proof (core_interrupt_exit c TFinish e) as E0. destruct (interrupt_exit c TFinish e) as [c1 e1]. cbn [fst] in E0.
  set (c2 := c1 <| intr_finish := IExited |> <| hs_timer := None |>).
  pose proof (cleanup_finish_ok c0 c2 TFinish (TRaise (wrap_fatal (fst (cleanup c2)) e1)) set_finish_future H
                (eq_trans (f_equal closeK E0) E) core_set_finish_future) as K.
  destruct (cleanup c2) as [c3 o]. exact K.
Qed.
Lemma finish_fail_ok c e : Inv c -> Inv (fst (finish_fail c e)) /\ cs (fst (finish_fail c e)) = Closed.
Proof. intro H. exact (finish_fail_from c c e H eq_refl). Qed.

Lemma tcp_attempt_ok c g :
  pc (t_start c) = PS_Resolve \/ (exists g', pc (t_start c) = PS_Tcp g') -> StepOK c (start_tcp_attempt c g).
Proof.
  intros Hp H. split; [|left; reflexivity]. pose proof H as (_ & [J1 J2] & _). unfold Inv.
  change (core_of (start_tcp_attempt c g)) with (with_pcs (core_of c) (PS_Tcp g) (pc (t_finish c)) (pc (t_disc c))).
  apply InvK_with_pcs; [exact H| |exact J2|exact (closed_helper _ H)].
  cbn [core_of k_ps] in J1. destruct Hp as [Hp|[g' Hp]]; rewrite Hp in J1; exact J1.
Qed.

Lemma core_sock_opened c : socket c = true -> core_of (fst (finish_task (set_state c SockOpen) TStart TOk)) = sockopenK (core_of c).
Proof. intro E. unfold sockopenK. rewrite <- E. reflexivity. Qed.

Lemma start_success_ok c g : pc (t_start c) = PS_Tcp g -> StepOK c (fst (start_success c)).
Proof.
  intros Ep H. unfold start_success.
  set (c1 := c <| socket := true |> <| sock_obj := false |> <| intr_start := IExited |> <| conn_timer := None |>).
  pose proof (core_set_start_future c1) as E2. set (c2 := set_start_future c1) in *.
  replace (cs c2) with (cs c) by (symmetry; exact (f_equal k_cs E2)).
  assert (Hcs : cs c = Init \/ cs c = Closed).
  { destruct H as (_ & [J1 _] & _). cbn [core_of k_ps k_cs] in J1. rewrite Ep in J1. exact J1. }
  destruct Hcs as [Hi|Hc]; rewrite ?Hi, ?Hc.
  - (* SOCKET_OPENED *)
    split; [|unfold trans_ok; auto]. unfold Inv.
    rewrite core_sock_opened by exact (f_equal k_socket E2). rewrite E2.
    exact (InvK_sockopen (core_of c) H Hi).
  - (* closed while the socket connected: _cleanup releases the socket again *)
    pose proof (cleanup_finish_ok c c2 TStart (TRaise (wrap_fatal (fst (cleanup c2)) Interrupted)) (fun x => x) H) as K.
    destruct (cleanup c2) as [c3 o3]. apply closing_ok, K; [|reflexivity].
    rewrite E2. unfold closeK. cbn [core_of k_cs]. change (cs c1) with (cs c). rewrite Hc. reflexivity.
Qed.

Lemma wake_start_ok c c' o : wake_start c = Some (c', o) -> StepOK c c'.
Proof.
  unfold wake_start. intro E.
  assert (F : forall x e, core_of x = core_of c -> StepOK c (fst (start_fail x e))).
  { intros x e Ex H. apply closing_ok, start_fail_ok, (Inv_core_eq _ _ Ex H). }
  (* every wake-up first takes a pending cancel request, which leaves the core and the program point as they are *)
  pose proof (core_take_cancel c TStart) as E1. pose proof (pc_take_cancel c TStart) as Ep1.
  destruct (take_cancel c TStart) as [c1 mc]. cbn [fst] in E1, Ep1. set (ct := c1 <| conn_timer := None |>) in *.
  destruct (pc (get_task c TStart)) as [| |g| | | | | | |]; try discriminate.
  - (* PS_Resolve *)
    destruct (_ || _); [|discriminate].
    match type of E with match ?d with _ => _ end = _ => destruct d as [|e] end.
    + apply some_pair_fst in E. subst c'. cbn [fst]. apply (StepOK_after _ ct _ (R_eq _ _ (eq_sym E1))).
      apply tcp_attempt_ok. left. exact Ep1.
    + pose proof (core_timeout_exit ct TStart e) as E2. destruct (timeout_exit ct TStart e) as [c2 e1]. cbn [fst] in E2.
      apply some_pair_fst in E. subst c'. apply F. rewrite E2. exact E1.
  - (* PS_Tcp *)
    destruct (_ || _); [|discriminate].
    match type of E with match ?d with _ => _ end = _ => destruct d as [|e] end.
    + apply some_pair_fst in E. subst c'. set (cs1 := c1 <| sock_obj := true |>). apply (StepOK_after _ cs1 _ (R_eq _ _ (eq_sym E1))).
      exact (start_success_ok cs1 g Ep1).
    + pose proof (core_timeout_exit ct TStart e) as E2. pose proof (pc_start_timeout_exit ct e) as Ep2.
      destruct (timeout_exit ct TStart e) as [c2 e1]. cbn [fst] in E2, Ep2.
      assert (Ec2 : core_of c2 = core_of c) by (rewrite E2; exact E1).
      destruct (is_oserror e1); [destruct g as [|[|g']]|]; apply some_pair_fst in E; subst c'; try (apply F; exact Ec2).
      (* another group of addresses is left *)
      cbn [fst]. apply (StepOK_after _ c2 _ (R_eq _ _ (eq_sym Ec2))). apply tcp_attempt_ok. right. eexists. rewrite Ep2. exact Ep1.
Qed.
