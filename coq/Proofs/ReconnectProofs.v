(* Model/Reconnect.v: the back-off wait in closed form for every number of failures; the invariant RI of the manager, kept by
   every label; what it gives of the callback log and of a manager whose stop() has returned. Properties/C18.v rests on it. *)
From Coq Require Import ZArith List Bool Lia.
From Verif Require Import Generated.GenConstants Model.FloatFix Model.Reconnect Proofs.ListFacts.
Import ListNotations.
Open Scope Z_scope.

Lemma backoff_ratio n : 7 <= n -> 60 * 5 ^ n <= 9 ^ n.
Proof.
  intro H. replace n with (7 + (n - 7)) by lia. rewrite !Z.pow_add_r by lia.
  assert (P : 0 <= 5 ^ (n - 7) <= 9 ^ (n - 7)) by (split; [apply Z.pow_nonneg|apply Z.pow_le_mono_l]; lia).
  change (5 ^ 7) with 78125. change (9 ^ 7) with 4782969. nia.
Qed.

Theorem backoff_capped n : 7 <= n -> backoff_seconds n = 60.
Proof.
  intro H. unfold backoff_seconds. cbv zeta. rewrite (proj2 (Z.leb_le _ _)); [reflexivity|].
  apply backoff_ratio. unfold BACKOFF_TRIES_CAP. lia.
Qed.

(* after the n-th consecutive failure the wait is min(round(1.8^n), 60) seconds - the cap of the exponent at 10 is invisible *)
Lemma backoff_seconds_eq n : backoff_seconds n = (if 60 * 5 ^ n <=? 9 ^ n then 60 else rhe (9 ^ n) (5 ^ n)).
Proof.
  destruct (Z.le_gt_cases n 10) as [L|L].
  - unfold backoff_seconds, BACKOFF_TRIES_CAP. rewrite Z.min_l by exact L. reflexivity.
  - rewrite backoff_capped, (proj2 (Z.leb_le _ _)) by (try apply backoff_ratio; lia). reflexivity.
Qed.

Definition task_of (st : rstate) : rtask :=
  match st with RDisc | RReady => TNone | RConnecting => TStartPending | RHandshaking => TFinishPending end.

Inductive alt : list bool -> bool -> Prop :=
| alt_nil : alt [] false
| alt_connect l : alt l false -> alt (l ++ [true]) true
| alt_disconnect l : alt l true -> alt (l ++ [false]) false.

(* inv holds also in the middle of a step, of the states that stop_tail, failure and after_task are applied to: in particular
   between the end of a connect task and the tail of the stop() that waited for it, where r_stopping is still set but the
   state is no longer RHandshaking *)
Record inv (s : rl) : Prop := {
  inv_task : r_task s = task_of (r_state s);
  inv_stopped : r_stopped s = true -> r_stopping s = false -> r_state s = RDisc /\ r_timer s = None /\ r_listening s = false;
  inv_alive : r_state s = RHandshaking -> r_alive s = false;
  inv_accept : r_accept s = true -> accepts_records (r_state s) = true;
  inv_flight : g_in_flight s = match r_task s with TNone => 0 | _ => 1 end;
  inv_alt : alt (g_log s) (r_alive s) }.

(* RI, the invariant of rstep: between steps inv holds and stop() waits only for a handshaking task *)
Definition RI (s : rl) : Prop := inv s /\ (r_stopping s = true -> r_state s = RHandshaking).

Lemma RI_init : RI rl_init.
Proof. split; [split|]; cbn; try easy. constructor. Qed.

Lemma inv_RI s : inv s -> r_stopping s = false -> RI s.
Proof. intros Hi Sg. split; [exact Hi|]. rewrite Sg. discriminate. Qed.

Lemma RI_not_stopping s : RI s -> r_state s <> RHandshaking -> r_stopping s = false.
Proof. intros [_ G] Hn. destruct (r_stopping s); [destruct (Hn (G eq_refl))|reflexivity]. Qed.

Lemma inv_pending s : inv s -> r_task s <> TNone -> r_stopped s = true -> r_stopping s = false -> False.
Proof. intros Hi Hn Sp Sg. destruct (inv_stopped s Hi Sp Sg) as (St & _). rewrite (inv_task s Hi), St in Hn. exact (Hn eq_refl). Qed.

Lemma stop_listen_eq s :
  stop_listen s = (keep_fields s (r_stopped s) false (r_tries s) (r_timer s) (r_task s) (r_stopping s) (r_alive s) (g_in_flight s) (g_log s),
                   if r_listening s then [OListen false] else []).
Proof. destruct s as [st ac sp [|] tr ti ta sg al nw inf lg]; reflexivity. Qed.

Lemma start_listen_eq s :
  start_listen s = (keep_fields s (r_stopped s) true (r_tries s) (r_timer s) (r_task s) (r_stopping s) (r_alive s) (g_in_flight s) (g_log s),
                    if r_listening s then [] else [OListen true]).
Proof. destruct s as [st ac sp [|] tr ti ta sg al nw inf lg]; reflexivity. Qed.

Lemma stop_tail_RI s : inv s -> RI (fst (stop_tail s)).
Proof.
  unfold stop_tail. rewrite stop_listen_eq. intro Hi. pose proof (inv_flight s Hi) as F. pose proof (inv_alt s Hi) as L.
  apply inv_RI; [split|]; cbn; try easy. destruct (r_task s); lia.
Qed.

Lemma after_task_RI r : inv (fst r) -> RI (fst (after_task r)).
Proof.
  destruct r as [s o]. unfold after_task. intro Hi. destruct (r_stopping s) eqn:Sg; [|exact (inv_RI _ Hi Sg)].
  pose proof (stop_tail_RI s Hi) as Q. destruct (stop_tail s). exact Q.
Qed.

(* a failed attempt arms the timer, which a stopped manager must not have: the task that failed was pending *)
Lemma failure_inv s auth : inv s -> r_task s <> TNone -> inv (fst (failure s auth)) /\ r_stopping (fst (failure s auth)) = r_stopping s.
Proof.
  unfold failure. rewrite start_listen_eq. intros Hi Hn. split; [|reflexivity].
  pose proof (inv_pending s Hi Hn) as Q. pose proof (inv_flight s Hi) as F. pose proof (inv_alt s Hi) as L. split; cbn; try easy.
  - (* inv_stopped *) intros Sp Sg. destruct (Q Sp Sg).
  - (* inv_flight *) destruct (r_task s); [destruct (Hn eq_refl)|lia|lia].
Qed.

Lemma connect_once_RI s : RI s -> RI (fst (connect_once s)).
Proof.
  unfold connect_once. intro H. destruct (r_state s) eqn:St; try exact H. destruct (r_stopped s); [exact H|].
  assert (Sg : r_stopping s = false) by (apply (RI_not_stopping s H); rewrite St; discriminate).
  set (s1 := set_fields s RConnecting _ _ _ _ _ _ _ _ _).
  assert (Hi1 : inv s1).
  { pose proof (inv_task s (proj1 H)) as T. pose proof (inv_flight s (proj1 H)) as F. pose proof (inv_alt s (proj1 H)) as L.
    rewrite St in T. split; cbn; try easy. rewrite F, T. reflexivity. }
  destruct (r_alive s); [|exact (inv_RI _ Hi1 Sg)].
  destruct (failure_inv s1 false Hi1) as [Hi2 Sg2]; [discriminate|]. destruct (failure s1 false) as [s2 o2].
  cbn [fst] in *. apply inv_RI; [exact Hi2|]. rewrite Sg2. exact Sg.
Qed.

Lemma connect_once_idle s : r_state s = RDisc -> r_stopped s = false -> r_alive s = false ->
  connect_once s = (set_fields s RConnecting false (r_listening s) (r_tries s) (r_timer s) TStartPending (r_stopping s) false
                      (g_in_flight s + 1) (g_log s), [OAttempt]).
Proof. intros St Sp Al. unfold connect_once. rewrite St, Sp, Al. reflexivity. Qed.

Lemma call_connect_once_idle s : r_task s = TNone -> call_connect_once s = connect_once s.
Proof. intro Ta. unfold call_connect_once. rewrite Ta. reflexivity. Qed.

Lemma call_connect_once_RI s : RI s -> RI (fst (call_connect_once s)).
Proof.
  unfold call_connect_once. intro H. pose proof (inv_task s (proj1 H)) as T. rewrite T.
  destruct (r_state s) eqn:St; cbn [task_of].
  - (* RDisc: no task *) exact (connect_once_RI s H).
  - (* RConnecting: the pending start_connection is cancelled *)
    set (s1 := set_fields s RDisc _ _ _ _ _ _ _ _ _). pose proof (connect_once_RI s1) as Q. destruct (connect_once s1). apply Q.
    assert (Sg : r_stopping s = false) by (apply (RI_not_stopping s H); rewrite St; discriminate).
    pose proof (inv_stopped s (proj1 H)) as P. pose proof (inv_flight s (proj1 H)) as F. pose proof (inv_alt s (proj1 H)) as L.
    rewrite T in F. cbn in F. apply inv_RI; [split|]; cbn; try easy.
    + (* inv_stopped *) intros Sp _. destruct (P Sp Sg) as (_ & Ti & Li). auto.
    + (* inv_flight *) lia.
  - (* RHandshaking: a handshake is not interrupted *) exact H.
  - (* RReady: no task *) exact (connect_once_RI s H).
Qed.

Definition RI_opt (r : option (rl * list robs)) : Prop := match r with Some p => RI (fst p) | None => True end.

Lemma RI_step_opt s l : RI s -> RI_opt (rstep s l).
Proof.
  intros H. pose proof (proj1 H) as Hi. pose proof (proj2 H) as G.
  pose proof (inv_task s Hi) as T. pose proof (inv_stopped s Hi) as P. pose proof (inv_alive s Hi) as A.
  pose proof (inv_accept s Hi) as C. pose proof (inv_flight s Hi) as F. pose proof (inv_alt s Hi) as L.
  destruct l as [| | | |r|r|ex|t]; cbn [rstep].
  - (* start() *)
    destruct (r_task s) eqn:Ta; try exact I. destruct (r_stopping s) eqn:Sg; try exact I.
    assert (R : forall tr, RI (keep_fields s false (r_listening s) tr (r_timer s) TNone false (r_alive s) (g_in_flight s) (g_log s))).
    { intro tr. apply inv_RI; [split|]; cbn; easy. }
    destruct (r_state s); [apply call_connect_once_RI|..]; apply R.
  - (* stop() *)
    destruct (r_stopping s) eqn:Sg; [exact I|].
    (* in the conclusion only: the new state is built from r_state s, of which T, A and C must go on speaking *)
    destruct (r_state s) eqn:St in |- *; try exact (stop_tail_RI s Hi).
    (* handshaking: stop() starts to wait *)
    split; [split|]; cbn; easy.
  - (* the timer fires *)
    destruct (r_timer s) as [d|]; [|exact I]. destruct (d =? r_now s); [|exact I].
    apply call_connect_once_RI. split; [split|]; cbn; try easy.
    (* inv_stopped *) intros Sp Sg. destruct (P Sp Sg) as (? & _ & ?). auto.
  - (* a record *)
    destruct (r_listening s); [|exact I]. destruct (negb (r_accept s) || r_stopped s); [exact H|].
    rewrite stop_listen_eq. set (s1 := keep_fields s _ _ _ _ _ _ _ _ _).
    assert (R : RI s1).
    { split; [split|]; cbn; try easy. (* inv_stopped *) intros Sp Sg. destruct (P Sp Sg) as (? & ? & _). auto. }
    apply call_connect_once_RI in R. destruct (call_connect_once s1) as [s2 o2]. destruct R as [Hi2 G2].
    (* records are ignored from here on: inv_accept has nothing to say, the rest is inv of s2 *)
    split; [split; try apply Hi2; discriminate|exact G2].
  - (* start_connection returns *)
    rewrite T. destruct (r_state s) eqn:St; cbn [task_of] in *; try exact I.
    assert (Sg : r_stopping s = false) by (apply (RI_not_stopping s H); rewrite St; discriminate).
    assert (R : forall auth, RI (fst (failure s auth))).
    { intros auth. destruct (failure_inv s auth Hi) as [Hi1 Sg1]; [rewrite T; discriminate|].
      apply inv_RI; [exact Hi1|congruence]. }
    destruct r; [|apply R..].
    destruct (r_alive s) eqn:Al in |- *; [exact I|]. (* L goes on speaking of r_alive s *) rewrite stop_listen_eq.
    pose proof (inv_pending s Hi) as Q. rewrite T in *.
    apply inv_RI; [split|]; cbn; try easy. (* inv_stopped *) intros Sp _. destruct Q; easy.
  - (* finish_connection returns *)
    rewrite T. destruct (r_state s) eqn:St; cbn [task_of] in *; try exact I.
    destruct r; apply after_task_RI; try (apply failure_inv; [exact Hi|rewrite T; discriminate]).
    pose proof (inv_pending s Hi) as Q. rewrite T in *. rewrite (A eq_refl) in L.
    split; cbn; try easy.
    + (* inv_stopped *) intros Sp Sg. destruct Q; easy.
    + (* inv_flight *) lia.
    + (* inv_alt *) exact (alt_connect _ L).
  - (* the session ends *)
    destruct (r_alive s) eqn:Al; [|exact I]. destruct (r_task s) eqn:Ta; try exact I.
    set (s1 := set_fields s RDisc _ _ _ _ _ _ _ _ _).
    assert (R : RI s1).
    { assert (Sg : r_stopping s = false).
      { apply (RI_not_stopping s H). intro St. rewrite St in T. discriminate. }
      apply inv_RI; [split|]; cbn; try easy.
      - (* inv_stopped *) intros Sp _. destruct (P Sp Sg) as (_ & ? & ?). auto.
      - (* inv_alt *) exact (alt_disconnect _ L). }
    destruct (r_stopped s); [exact R|]. destruct ex.
    + (* expected: the cool-down timer is set; the timer occurs in inv_stopped only, which has nothing to say of a running manager *)
      destruct R as [Hi1 G1]. split; [split; try apply Hi1; easy|exact G1].
    + (* unexpected: a new attempt at once *)
      apply call_connect_once_RI in R. destruct (call_connect_once s1). exact R.
  - (* time passes: inv does not mention the clock *)
    destruct (_ && _); [|exact I]. split; [split|]; cbn; easy.
Qed.

Lemma RI_step s l s' o : RI s -> rstep s l = Some (s', o) -> RI s'.
Proof. intros H E. pose proof (RI_step_opt s l H) as Q. rewrite E in Q. exact Q. Qed.

Lemma RI_run ls : forall s s' os, RI s -> rrun s ls = Some (s', os) -> RI s'.
Proof.
  induction ls as [|l ls IH]; intros s s' os H E; cbn [rrun] in E.
  - injection E as <- _. exact H.
  - destruct (rstep s l) as [[s1 o]|] eqn:Es; [|discriminate].
    destruct (rrun s1 ls) as [[s2 os2]|] eqn:Er; [|discriminate]. injection E as <- _.
    eapply IH; [|exact Er]. eapply RI_step; eassumption.
Qed.

Definition rreachable (s : rl) : Prop := exists ls os, rrun rl_init ls = Some (s, os).
Lemma rreachable_RI s : rreachable s -> RI s.
Proof. intros (ls & os & E). eapply RI_run; [apply RI_init|exact E]. Qed.

Lemma parity_snoc (l : list bool) b : (forall i x, nth_error l i = Some x -> x = Nat.even i) -> Nat.even (length l) = b ->
  (forall i x, nth_error (l ++ [b]) i = Some x -> x = Nat.even i) /\ Nat.even (length (l ++ [b])) = negb b.
Proof.
  intros A D. split.
  - intros i x Q. apply nth_error_snoc in Q as [Q|[-> ->]]; [exact (A i x Q)|rewrite D; reflexivity].
  - rewrite app_length, Nat.add_1_r, Nat.even_succ, <- Nat.negb_even, D. reflexivity.
Qed.

Lemma alt_parity l b : alt l b -> (forall i x, nth_error l i = Some x -> x = Nat.even i) /\ Nat.even (length l) = negb b.
Proof.
  induction 1 as [|l H [A D]|l H [A D]].
  - split; [intros [|i] x Q; discriminate|reflexivity].
  - exact (parity_snoc l true A D).
  - exact (parity_snoc l false A D).
Qed.

Definition is_attempt (x : robs) : bool := match x with OAttempt => true | _ => false end.

Lemma stop_tail_quiet s s' o : stop_tail s = (s', o) ->
  existsb is_attempt o = false /\ r_stopped s' = true /\ r_listening s' = false /\ r_timer s' = None /\ r_task s' = TNone.
Proof.
  unfold stop_tail. rewrite stop_listen_eq. intros [= <- <-]. rewrite !existsb_app.
  destruct (r_task s), (r_listening s); cbn; auto.
Qed.

Lemma stopped_quiet s l s' o : RI s -> r_stopped s = true -> r_stopping s = false -> l <> LStart -> rstep s l = Some (s', o) ->
  existsb is_attempt o = false /\ r_stopped s' = true /\ r_listening s' = false /\ r_timer s' = None /\ r_task s' = TNone.
Proof.
  intros [Hi _] Sp Sg Hl E. destruct (inv_stopped s Hi Sp Sg) as (St & Ti & Li).
  pose proof (inv_task s Hi) as T. rewrite St in T. cbn in T.
  destruct l as [| | | |r|r|ex|t]; cbn [rstep] in E; rewrite ?Sg, ?St, ?Ti, ?Li, ?T in E; try discriminate E.
  - (* LStart *) destruct (Hl eq_refl).
  - (* LStop *) injection E as E. exact (stop_tail_quiet _ _ _ E).
  - (* LSessionEnd *) rewrite Sp in E. destruct (r_alive s); [|discriminate]. injection E as <- <-. cbn. auto.
  - (* LAdv *) destruct (_ && _); [|discriminate]. injection E as <- <-. cbn. auto.
Qed.
