(* Model/Conn.v as paths of moves.

   Whatever a callback does to the connection, it does by a handful of primitive state changes.  Each is a move: a constructor
   of `close_atom` (closing and sending), `data_atom` (dispatch of a frame) or `step_atom l` (everything a callback with
   label l does), recorded with the exact state it produces, the observations it emits and the facts that are evident in the
   model at the place where it is made; every move of `step_atom l` that only some labels make says which (closing and raising
   are open to all).  `path` is the closure under composition, observations appended.  Each function of the model is shown
   once to run along a path, and `step_path` says that every enabled label does.  A property that holds of every move and
   composes therefore holds of every function and every label, and the files that prove invariants of the transition system
   only say what their relation makes of each move; `run_invariant` takes what every label keeps to every run. *)
From Coq Require Import NArith ZArith List Bool.
From RecordUpdate Require Import RecordSet.
From Verif Require Import Generated.GenConstants Model.Conn.
Import ListNotations RecordSetNotations.
Open Scope Z_scope.
Open Scope list_scope.

(* inversion without normalising the (large) terms involved *)
Lemma some_inj {A} (a b : A) : Some a = Some b -> a = b.
Proof. intro H. injection H as H. exact H. Qed.
Lemma pair_inv {A B} (a c : A) (b d : B) : (a, b) = (c, d) -> a = c /\ b = d.
Proof. intro H. injection H as H1 H2. auto. Qed.
Lemma some_pair_inv {A B} (a c : A) (b d : B) : Some (a, b) = Some (c, d) -> a = c /\ b = d.
Proof. intro H. apply some_inj in H. apply pair_inv in H. exact H. Qed.
Lemma some_pair_fst {A B} (x : A * B) a b : Some x = Some (a, b) -> a = fst x.
Proof. intro E. injection E as ->. reflexivity. Qed.
Lemma some_pair_snd {A B} (x : A * B) a b : Some x = Some (a, b) -> b = snd x.
Proof. intro E. injection E as ->. reflexivity. Qed.

(* destruct the innermost scrutinee of the goal *)
Ltac dm :=
  match goal with
  | |- context [match ?x with _ => _ end] =>
    lazymatch x with
    | context [match _ with _ => _ end] => fail
    | _ => destruct x eqn:?
    end
  end.
(* the same for a hypothesis *)
Ltac dmh E :=
  match type of E with
  | context [match ?x with _ => _ end] =>
    lazymatch x with
    | context [match _ with _ => _ end] => fail
    | _ => destruct x eqn:?
    end
  end.

Lemma fold_left_view {S B V} (v : S -> V) (f : S -> B -> S) : (forall a b, v (f a b) = v a) -> forall l a, v (fold_left f l a) = v a.
Proof. intros H l. induction l as [|b l IH]; intro a; cbn [fold_left]; [reflexivity|]. rewrite IH. apply H. Qed.

(* the first half of _cleanup: the state, the waiters and their calls *)
Definition close_state (c : conn) : conn :=
  let c1 := set_state c Closed <| closed_at := Some (now c) |> in
  c1 <| calls := map (fun k => if existsb (Nat.eqb (c_id k)) (waiters c1) then fail_waiter (waiter_exc (fatal c1)) k else k) (calls c1) |>
     <| waiters := [] |>.
(* _cleanup up to the release of the resources *)
Definition pre_close (c : conn) : conn := set_finish_future (set_start_future (close_state c)).

(* set_finish_future after set_start_future, without the conditionals *)
Definition resolved (f : fstat) : fstat := match f with FPending => FDone | x => x end.
Definition resolve_futures (c : conn) : conn := c <| start_fut := resolved (start_fut c) |> <| finish_fut := resolved (finish_fut c) |>.
Lemma set_futures_resolve c : set_finish_future (set_start_future c) = resolve_futures c.
Proof.
  unfold set_finish_future, set_start_future, resolve_futures.
  destruct c as [? ? ? ? ? ? ? ? sf ff]. cbn [start_fut finish_fut]. destruct sf, ff; reflexivity.
Qed.
Lemma pre_close_resolve c : pre_close c = resolve_futures (close_state c).
Proof. apply set_futures_resolve. Qed.

Definition fire_stop (c : conn) : conn :=
  c <| on_stop_armed := false |> <| stop_calls := stop_calls c ++ [expected_disconnect c] |>.

(* a `match` on the state with a branch for CLOSED and one for the rest, as the model writes its closed checks *)
Lemma closed_or_open s : s = Closed \/ s <> Closed.
Proof. destruct s; auto; right; discriminate. Qed.
Lemma when_closed {A} s (a b : A) : s = Closed -> match s with Closed => a | _ => b end = a.
Proof. intros ->. reflexivity. Qed.
Lemma when_open {A} s (a b : A) : s <> Closed -> match s with Closed => a | _ => b end = b.
Proof. destruct s; try reflexivity. contradiction. Qed.

Lemma cleanup_closed c : cs c = Closed -> cleanup c = release_resources c.
Proof. intro H. unfold cleanup. apply when_closed, H. Qed.

Lemma cleanup_open c : cs c <> Closed ->
  cleanup c = let '(c4, o) := release_resources (pre_close c) in
              if on_stop_armed c4 && is_connected c then (fire_stop c4, o ++ [OStop (expected_disconnect c4)]) else (c4, o).
Proof. intro H. unfold cleanup, pre_close, close_state. destruct (cs c); try reflexivity. contradiction. Qed.

(* handle_complex_message on the record of a call whose future is pending (ConnCalls.call_step for any future) *)
Definition recv (k : call) (m : msg) : call :=
  let k1 := if eval_pred (c_append k) m then k <| c_responses := c_responses k ++ [m] |> else k in
  if eval_pred (c_stop k) m then k1 <| c_fut := CResult |> else k1.

Definition new_call (c : conn) (owner : tid) (types : list N) (ap st : pred) (timeout : Z) : call :=
  mkCall (next_cid c) types ap st [] CPending (Some (now c + timeout)) owner (now c) timeout.

(* call_begin after its send *)
Definition register_call (c : conn) (owner : tid) (types : list N) (ap st : pred) (timeout : Z) : conn :=
  fold_left (fun a ty => add_handler a ty (HCall (next_cid c))) types
    (c <| calls := calls c ++ [new_call c owner types ap st timeout] |> <| next_cid := S (next_cid c) |>
       <| waiters := waiters c ++ [next_cid c] |>).

(* how the coroutine of a task rewrites its own record (a pending cancel request taken, asyncio.timeout or interrupt left);
   the program point stays *)
Inductive tmove (k : task) : task -> Prop :=
| TmTake : must_cancel k = true -> tmove k (k <| must_cancel := false |>)
| TmTimeoutExit : expiring k = true -> tmove k (k <| expiring := false |> <| ncancel := Nat.pred (ncancel k) |>)
| TmInterruptExit : interrupted k = true -> tmove k (k <| ncancel := Nat.pred (ncancel k) |>).

Lemma tmove_pc k k' : tmove k k' -> pc k' = pc k.
Proof. destruct 1; reflexivity. Qed.

Section Paths.
  Variable A : conn -> list obs -> conn -> Prop.

  Inductive path : conn -> list obs -> conn -> Prop :=
  | path_nil c : path c [] c
  | path_cons c o1 c1 o2 c2 : A c o1 c1 -> path c1 o2 c2 -> path c (o1 ++ o2) c2.

  Lemma path_one c o c' : A c o c' -> path c o c'.
  Proof. intro H. rewrite <- (app_nil_r o). econstructor; [exact H|constructor]. Qed.

  Lemma path_app c o1 c1 o2 c2 : path c o1 c1 -> path c1 o2 c2 -> path c (o1 ++ o2) c2.
  Proof.
    induction 1 as [|c o0 c0 o1 c1 H0 _ IH]; intro H; [exact H|].
    rewrite <- app_assoc. econstructor; [exact H0|exact (IH H)].
  Qed.

  (* the forms in which paths are built: the observation list is given up to an equation *)
  Lemma path_atom_then c o1 c1 o2 c2 o : A c o1 c1 -> path c1 o2 c2 -> o = o1 ++ o2 -> path c o c2.
  Proof. intros H0 H ->. econstructor; eassumption. Qed.
  Lemma path_then c o1 c1 o2 c2 o : path c o1 c1 -> path c1 o2 c2 -> o = o1 ++ o2 -> path c o c2.
  Proof. intros H0 H ->. eapply path_app; eassumption. Qed.

  Lemma path_rel (P : conn -> conn -> Prop) :
    (forall c, P c c) -> (forall a b c, P a b -> P b c -> P a c) -> (forall c o c', A c o c' -> P c c') ->
    forall c o c', path c o c' -> P c c'.
  Proof. intros R T H c o c'. induction 1; eauto. Qed.

  Lemma path_rel_obs (P : conn -> list obs -> conn -> Prop) :
    (forall c, P c [] c) -> (forall a o1 b o2 c, P a o1 b -> P b o2 c -> P a (o1 ++ o2) c) ->
    (forall c o c', A c o c' -> P c o c') ->
    forall c o c', path c o c' -> P c o c'.
  Proof. intros R T H c o c'. induction 1; eauto. Qed.

  Lemma path_rel_under (I : conn -> Prop) (P : conn -> conn -> Prop) :
    (forall c, P c c) -> (forall a b c, P a b -> P b c -> P a c) ->
    (forall c o c', A c o c' -> I c -> I c') -> (forall c o c', A c o c' -> I c -> P c c') ->
    forall c o c', path c o c' -> I c -> P c c'.
  Proof. intros R T HI H c o c'. induction 1; eauto. Qed.

  Lemma path_inv (I : conn -> Prop) :
    (forall c o c', A c o c' -> I c -> I c') -> forall c o c', path c o c' -> I c -> I c'.
  Proof. intros H c o c'. induction 1; eauto. Qed.
End Paths.
Arguments path_nil {A}.

Lemma path_incl (A B : conn -> list obs -> conn -> Prop) :
  (forall c o c', A c o c' -> B c o c') -> forall c o c', path A c o c' -> path B c o c'.
Proof. intros H c o c'. induction 1; econstructor; eauto. Qed.

(* closes the equation between observation lists that the path-building lemmas leave; `reflexivity` alone would unfold
   the model's functions to compare the two sides *)
Ltac pobs := cbn [app]; first [reflexivity | rewrite ?app_nil_r, <- ?app_assoc; reflexivity].

(* closing and sending: what _cleanup, report_fatal_error, the helper's error path and send_messages do *)
Inductive close_atom : conn -> list obs -> conn -> Prop :=
| AStartFut c : start_fut c = FPending -> close_atom c [] (c <| start_fut := FDone |>)
| AFinishFut c : finish_fut c = FPending -> close_atom c [] (c <| finish_fut := FDone |>)
| AReady c r : ready c = RPending -> close_atom c [] (c <| ready := r |>)
| AHelperClose c : close_atom c [OHelperClose] c
| ATransportClose c : transport c = TOpen -> close_atom c [OTransportClose] (c <| transport := TClosing None |>)
| AHelperNone c : cs c = Closed -> close_atom c [] (c <| helper := HNone |> <| helper_obj := HClosed |>)
| ASocketClose c : cs c = Closed -> socket c = true -> close_atom c [OSocketClose] (c <| socket := false |>)
| ATimersNone c : cs c = Closed -> close_atom c [] (c <| pong_timer := None |> <| ping_timer := None |>)
| ACloseState c : cs c <> Closed -> close_atom c [] (resolve_futures (close_state c))
| AFire c : cs c = Closed -> on_stop_armed c = true -> close_atom c [OStop (expected_disconnect c)] (fire_stop c)
| AFatal c e : fatal c = None -> close_atom c [] (c <| fatal := Some e |>)
| AWrite c tys : handshake_complete c = true -> write_fails c = false -> transport c = TOpen -> close_atom c [OWrite tys] c.

(* dispatch: what process_packet and the handlers do to one incoming frame *)
Inductive data_atom : conn -> list obs -> conn -> Prop :=
| DClose c o c' : close_atom c o c' -> data_atom c o c'
| DPacket c : cs c <> Closed -> data_atom c [] (c <| pong_timer := None |> <| send_pending_ping := false |>)
| DCallMsg c cid k m : get_call c cid = Some k -> c_fut k = CPending -> data_atom c [] (upd_call c cid (fun _ => recv k m))
| DAction c a : data_atom c [] (run_action c a)
| DExpected c : data_atom c [] (c <| expected_disconnect := true |>)    (* the peer's DisconnectRequest *)
| DDeliver c u m : data_atom c [ODeliver u m] c.

Notation cpath := (path close_atom).
Notation dpath := (path data_atom).

Lemma cpath_dpath c o c' : cpath c o c' -> dpath c o c'.
Proof. apply path_incl. exact DClose. Qed.

Lemma path_set_start_future c : cpath c [] (set_start_future c).
Proof. unfold set_start_future. destruct (start_fut c) eqn:E; try apply path_nil. apply path_one, AStartFut, E. Qed.

Lemma path_set_finish_future c : cpath c [] (set_finish_future c).
Proof. unfold set_finish_future. destruct (finish_fut c) eqn:E; try apply path_nil. apply path_one, AFinishFut, E. Qed.

Lemma cs_set_start_future c : cs (set_start_future c) = cs c.
Proof. unfold set_start_future. destruct (start_fut c); reflexivity. Qed.
Lemma cs_set_finish_future c : cs (set_finish_future c) = cs c.
Proof. unfold set_finish_future. destruct (finish_fut c); reflexivity. Qed.

Lemma cs_pre_close c : cs (pre_close c) = Closed.
Proof. unfold pre_close. rewrite cs_set_finish_future, cs_set_start_future. reflexivity. Qed.

Lemma path_pre_close c : cs c <> Closed -> cpath c [] (pre_close c).
Proof. intro H. rewrite pre_close_resolve. apply path_one, ACloseState, H. Qed.

Lemma cs_helper_close c : cs (fst (helper_close c)) = cs c.
Proof. unfold helper_close. repeat dm; reflexivity. Qed.

Lemma path_helper_close c : cpath c (snd (helper_close c)) (fst (helper_close c)).
Proof.
  unfold helper_close.
  assert (H : cpath c [] (match ready c with RPending => if noise c then c <| ready := RExc (Lib LConn) |> else c | _ => c end)).
  { destruct (ready c) eqn:E; try apply path_nil. destruct (noise c); [apply path_one, AReady, E|apply path_nil]. }
  set (c1 := match ready c with RPending => _ | _ => c end) in *.
  destruct (transport c1) eqn:Et; cbn [fst snd];
    (eapply path_then; [exact H| |reflexivity]);
    try (apply path_one, AHelperClose).
  eapply path_atom_then; [apply AHelperClose|apply path_one, ATransportClose, Et|reflexivity].
Qed.

Lemma path_release c : cs c = Closed -> cpath c (snd (release_resources c)) (fst (release_resources c)).
Proof.
  intro Hc. unfold release_resources.
  assert (H1 : cpath c (snd (match helper c with
                            | HNone => (c, [])
                            | _ => let '(c', o) := helper_close c in (c' <| helper := HNone |> <| helper_obj := HClosed |>, o)
                            end))
                      (fst (match helper c with
                            | HNone => (c, [])
                            | _ => let '(c', o) := helper_close c in (c' <| helper := HNone |> <| helper_obj := HClosed |>, o)
                            end)) /\
               cs (fst (match helper c with
                        | HNone => (c, [])
                        | _ => let '(c', o) := helper_close c in (c' <| helper := HNone |> <| helper_obj := HClosed |>, o)
                        end)) = Closed).
  { pose proof (path_helper_close c) as P. pose proof (cs_helper_close c) as Q.
    destruct (helper_close c) as [c' o]. cbn [fst snd] in P, Q. rewrite Hc in Q.
    destruct (helper c); cbn [fst snd]; (split; [|assumption]); try apply path_nil;
      (eapply path_then; [exact P|apply path_one, AHelperNone, Q|symmetry; apply app_nil_r]). }
  destruct (match helper c with HNone => _ | _ => _ end) as [c1 o1]. cbn [fst snd] in H1. destruct H1 as [P1 Q1].
  destruct (socket c1) eqn:Es; cbn [fst snd].
  - eapply path_then; [exact P1| |reflexivity].
    eapply path_atom_then; [apply (ASocketClose c1 Q1 Es)|apply path_one, ATimersNone, Q1|reflexivity].
  - eapply path_then; [exact P1|apply path_one, ATimersNone, Q1|]. rewrite !app_nil_r. reflexivity.
Qed.

Lemma cs_release c : cs (fst (release_resources c)) = cs c.
Proof.
  unfold release_resources. pose proof (cs_helper_close c) as Q. destruct (helper_close c) as [c' o]. cbn [fst] in Q.
  destruct (helper c); cbn [fst]; dm; cbn [fst]; (reflexivity || exact Q).
Qed.

Lemma path_cleanup c : cpath c (snd (cleanup c)) (fst (cleanup c)).
Proof.
  destruct (closed_or_open (cs c)) as [Ec|Ec]; [rewrite cleanup_closed by exact Ec; apply path_release, Ec|].
  rewrite cleanup_open by exact Ec.
  pose proof (path_release (pre_close c) (cs_pre_close c)) as P. pose proof (cs_release (pre_close c)) as Q.
  rewrite cs_pre_close in Q. destruct (release_resources (pre_close c)) as [c4 o]. cbn [fst snd] in P, Q.
  assert (P0 : cpath c o c4) by (eapply path_then; [apply path_pre_close, Ec|exact P|reflexivity]).
  destruct (on_stop_armed c4) eqn:Ea; cbn [andb]; [destruct (is_connected c)|]; cbn [fst snd]; try exact P0.
  eapply path_then; [exact P0|apply path_one, (AFire c4 Q Ea)|reflexivity].
Qed.

Lemma cs_cleanup c : cs (fst (cleanup c)) = Closed.
Proof.
  destruct (closed_or_open (cs c)) as [Ec|Ec]; [rewrite cleanup_closed by exact Ec; rewrite cs_release; exact Ec|].
  rewrite cleanup_open by exact Ec.
  pose proof (cs_release (pre_close c)) as Q. rewrite cs_pre_close in Q. destruct (release_resources (pre_close c)) as [c4 o].
  cbn [fst] in Q. destruct (_ && _); exact Q.
Qed.

Lemma path_report_fatal c e : cpath c (snd (report_fatal c e)) (fst (report_fatal c e)).
Proof.
  unfold report_fatal. destruct (fatal c) eqn:E; [apply path_cleanup|].
  eapply path_atom_then; [apply (AFatal c e E)|apply path_cleanup|reflexivity].
Qed.

Lemma path_helper_error c e : cpath c (snd (helper_error c e)) (fst (helper_error c e)).
Proof.
  unfold helper_error. destruct (ready c) eqn:E; try apply path_report_fatal.
  eapply path_atom_then; [apply (AReady c (RExc e) E)|apply path_report_fatal|reflexivity].
Qed.

Lemma path_send_messages c tys : cpath c (snd (fst (send_messages c tys))) (fst (fst (send_messages c tys))).
Proof.
  unfold send_messages. destruct (handshake_complete c) eqn:Eh; cbn [negb]; [|apply path_nil].
  destruct (write_fails c) eqn:Ew.
  - pose proof (path_report_fatal c (Lib LSocketClosed)) as P. destruct (report_fatal c (Lib LSocketClosed)). exact P.
  - destruct (transport c) eqn:Et; cbn [fst snd]; try apply path_nil. apply path_one, AWrite; assumption.
Qed.

Lemma next_cid_cpath c o c' : cpath c o c' -> next_cid c' = next_cid c.
Proof.
  apply (path_rel _ (fun x y => next_cid y = next_cid x)); [reflexivity|intros x y z A B; congruence|].
  destruct 1; reflexivity.
Qed.

Lemma send_messages_none c tys c1 o : send_messages c tys = (c1, o, None) -> c1 = c /\ handshake_complete c = true.
Proof.
  unfold send_messages. destruct (handshake_complete c); cbn [negb]; [|intro H; apply pair_inv in H; destruct H as [_ H]; discriminate H].
  destruct (write_fails c).
  - destruct (report_fatal c (Lib LSocketClosed)). intro H. apply pair_inv in H. destruct H as [_ H]. discriminate H.
  - destruct (transport c); intro H; apply pair_inv in H; destruct H as [H _]; apply pair_inv in H; destruct H as [H _]; auto.
Qed.

Lemma path_handle_call_message c cid m : dpath c [] (handle_call_message c cid m).
Proof.
  unfold handle_call_message. destruct (get_call c cid) as [k|] eqn:Ek; [|apply path_nil].
  destruct (c_fut k) eqn:Ef; try apply path_nil. apply path_one. exact (DCallMsg c cid k m Ek Ef).
Qed.

Lemma path_fold_actions l : forall c, dpath c [] (fold_left run_action l c).
Proof. induction l as [|a l IH]; intro c; cbn [fold_left]; [apply path_nil|]. eapply path_atom_then; [apply DAction|apply IH|reflexivity]. Qed.

Lemma path_call_handler c h m : dpath c (snd (fst (call_handler c h m))) (fst (fst (call_handler c h m))).
Proof.
  destruct h; cbn [call_handler]; try apply cpath_dpath, path_send_messages.
  - pose proof (path_send_messages (c <| expected_disconnect := true |>) [T_DISC_RESP]) as P.
    destruct (send_messages (c <| expected_disconnect := true |>) [T_DISC_RESP]) as [[c2 o] ex]. cbn [fst snd] in P.
    assert (P2 : dpath c o c2) by (eapply path_atom_then; [apply DExpected|apply cpath_dpath, P|reflexivity]).
    destruct ex; cbn [fst snd]; [exact P2|].
    pose proof (path_cleanup c2) as P3. destruct (cleanup c2) as [c3 o3]. cbn [fst snd] in *.
    eapply path_then; [exact P2|apply cpath_dpath, P3|reflexivity].
  - cbn [fst snd]. apply path_handle_call_message.
  - cbn [fst snd]. eapply path_then; [apply path_fold_actions|apply path_one, DDeliver|reflexivity].
Qed.

Lemma path_run_handlers hs m : forall c, dpath c (snd (fst (run_handlers c hs m))) (fst (fst (run_handlers c hs m))).
Proof.
  induction hs as [|h hs IH]; intro c; cbn [run_handlers]; [apply path_nil|].
  pose proof (path_call_handler c h m) as P1. destruct (call_handler c h m) as [[c1 o1] ex]. cbn [fst snd] in P1.
  destruct ex; [exact P1|].
  specialize (IH c1). destruct (run_handlers c1 hs m) as [[c2 o2] ex2]. cbn [fst snd] in *.
  eapply path_then; [exact P1|exact IH|reflexivity].
Qed.

Lemma path_process_packet c m : dpath c (snd (fst (process_packet c m))) (fst (fst (process_packet c m))).
Proof.
  unfold process_packet. destruct (closed_or_open (cs c)) as [Ec|Ec]; [rewrite when_closed by exact Ec; apply path_nil|].
  rewrite when_open by exact Ec. destruct (negb (registered (m_ty m))); [apply path_nil|]. destruct (negb (m_valid m)).
  - pose proof (path_report_fatal c (Lib LProtocol)) as P. destruct (report_fatal c (Lib LProtocol)). apply cpath_dpath, P.
  - match goal with |- context [run_handlers ?x ?hs ?mm] =>
      pose proof (path_run_handlers hs mm x) as P; destruct (run_handlers x hs mm) as [[c2 o2] ex2] end.
    cbn [fst snd] in *. eapply path_atom_then; [apply DPacket, Ec|exact P|reflexivity].
Qed.

Lemma path_data_loop items : forall c, dpath c (snd (fst (data_loop c items))) (fst (fst (data_loop c items))).
Proof.
  induction items as [|[m|req] items IH]; intro c; cbn [data_loop]; [apply path_nil| |].
  - pose proof (path_process_packet c m) as P1. destruct (process_packet c m) as [[c1 o1] ex]. cbn [fst snd] in P1.
    destruct ex; [exact P1|]. specialize (IH c1). destruct (data_loop c1 items) as [[c2 o2] ex2]. cbn [fst snd] in *.
    eapply path_then; [exact P1|exact IH|reflexivity].
  - match goal with |- context [helper_error c ?e] => pose proof (path_helper_error c e) as P; destruct (helper_error c e) end.
    apply cpath_dpath, P.
Qed.

(* Task t is the one that ends the call cid in its finally block: finish_connection and disconnect() end the call whose id
   their program point stores; the task of a request is `TCall cid` and ends call cid whatever id its program point stores
   (wake_call looks the call up by the id of the task). *)
Definition awaits (p : tpc) (t : tid) (cid : nat) : Prop :=
  match p with
  | PF_Hello x => t = TFinish /\ x = cid
  | PD_Resp x => t = TDisc /\ x = cid
  | PC_Wait _ => t = TCall cid
  | _ => False
  end.

(* Task.cancel() cancels the call whose id the program point stores, also for a request (cancel_awaited reads the id from
   the program point where wake_call reads it from the task: the difference from `awaits`) *)
Definition waits_for (p : tpc) (cid : nat) : Prop := p = PF_Hello cid \/ p = PD_Resp cid \/ p = PC_Wait cid.
Definition starts_call (l : label) : Prop := exists send types ap st timeout, l = LCallStart send types ap st timeout.

(* a connect phase ends here only with an error, after _cleanup (its success is the move that advances the state) *)
Definition ends_closed (c : conn) (t : tid) (r : tres) : Prop :=
  match t with TStart | TFinish => cs c = Closed /\ exists e, r = TRaise e | _ => True end.

(* labels under which this side ends the connection: force_disconnect, disconnect() and its continuation *)
Definition initiates_locally (l : label) : Prop := l = LForce \/ l = LDisconnect \/ l = LWake TDisc.
Definition carries_data (l : label) : Prop := exists items, l = LData items.
(* the task whose coroutine a label runs; the task on which a label calls Task.cancel() (the caller's cancel, the interrupt of
   a connect phase, the timeout of start_connection); either way, a task whose record the label rewrites *)
Definition runs (l : label) (t : tid) : Prop :=
  match l with
  | LWake t' => t = t'
  | LDisconnect => t = TDisc
  | LCallStart _ _ _ _ _ => exists cid, t = TCall cid
  | _ => False
  end.
Definition cancels (l : label) (t : tid) : Prop :=
  match l with
  | LCancel t' => t = t'
  | LIntr is_start => t = if is_start then TStart else TFinish
  | LTimer TkConnect => t = TStart
  | _ => False
  end.
Definition actor (l : label) (t : tid) : Prop := runs l t \/ cancels l t.

(* what a callback (label l) does beyond closing and dispatching: the calls it registers and ends, the records of the tasks,
   the advance of the visible state, and the label's own assignments *)
Inductive step_atom (l : label) : conn -> list obs -> conn -> Prop :=
| SClose c o c' : close_atom c o c' -> step_atom l c o c'
| SData c o c' : carries_data l -> data_atom c o c' -> step_atom l c o c'
| SRaise c e : step_atom l c [ORaise e] c
(* request/response calls *)
| SNewCall c owner types ap st tmo : runs l owner -> (forall x, owner = TCall x -> x = next_cid c) -> handshake_complete c = true ->
    step_atom l c [] (register_call c owner types ap st tmo)
| SCallFinally c t cid k : runs l t -> awaits (pc (get_task c t)) t cid -> get_call c cid = Some k ->
    step_atom l c [] (call_finally c cid)
| SCallTask c : starts_call l ->
    step_atom l c [] (c <| call_tasks := call_tasks c ++ [(next_cid c, task0 <| pc := PC_Wait (next_cid c) |>)] |>)
| SNextCid c : starts_call l -> step_atom l c [] (c <| next_cid := S (next_cid c) |>)
| SCallTimeout c cid k : l = LTimer (TkCall cid) -> get_call c cid = Some k -> due (c_timer k) c = true ->
    step_atom l c [] (upd_call c cid (fun x => (match c_fut x with CPending => x <| c_fut := CExc PyTimeout |> | _ => x end) <| c_timer := None |>))
(* Task.cancel(): what the task awaits is cancelled if it is still pending; the request is counted, and stays pending in the
   task unless the cancelled future delivers it *)
| SDoConnectCancel c t : cancels l t -> pc (get_task c t) = PS_Resolve \/ (exists g, pc (get_task c t) = PS_Tcp g) -> do_connect c = EPending ->
    step_atom l c [] (c <| do_connect := ECancelled |>)
| SMadeWaiterCancel c t : cancels l t -> pc (get_task c t) = PF_Create -> made_waiter c = EPending ->
    step_atom l c [] (c <| made_waiter := ECancelled |>)
| SReadyCancel c t : cancels l t -> pc (get_task c t) = PF_Ready -> ready c = RPending -> step_atom l c [] (c <| ready := RCancelled |>)
| SCallCancel c t cid k : cancels l t -> waits_for (pc (get_task c t)) cid -> get_call c cid = Some k -> c_fut k = CPending ->
    step_atom l c [] (upd_call c cid (fun x => x <| c_fut := CCancelled |>))
| SDiscWaitCancel c t : cancels l t -> pc (get_task c t) = PD_Wait -> disc_wait_done c = false ->
    step_atom l c [] (c <| disc_wait_done := true |>)
| STaskCancel c t b : cancels l t -> task_running (get_task c t) = true -> (b = true \/ b = must_cancel (get_task c t)) ->
    step_atom l c [] (set_task c t ((get_task c t) <| ncancel := S (ncancel (get_task c t)) |> <| must_cancel := b |>))
(* the records of the tasks *)
| STask c t k' : runs l t -> tmove (get_task c t) k' -> step_atom l c [] (set_task c t k')
| STaskDone c t r : runs l t -> ends_closed c t r ->
    step_atom l c [OTaskDone t r] (set_task c t ((get_task c t) <| pc := PDone r |>))
| SUserCancel c t : l = LCancel t -> task_running (get_task c t) = true ->
    step_atom l c [] (set_task c t ((get_task c t) <| user_cancelled := true |>))
| SIntrStart c : l = LIntr true -> start_fut c = FDone -> intr_start c = IArmed ->
    step_atom l c [] (c <| intr_start := IFired |> <| t_start := (t_start c) <| interrupted := true |> |>)
| SIntrFinish c : l = LIntr false -> finish_fut c = FDone -> intr_finish c = IArmed ->
    step_atom l c [] (c <| intr_finish := IFired |> <| t_finish := (t_finish c) <| interrupted := true |> |>)
| SConnExpire c : l = LTimer TkConnect -> due (conn_timer c) c = true ->
    step_atom l c [] (c <| conn_timer := None |> <| t_start := (t_start c) <| expiring := true |> |>)
(* start_connection; a phase that succeeds advances the visible state and ends its task in one move *)
| SStart c : l = LStart -> cs c = Init -> pc (t_start c) = PNone ->
    step_atom l c [] (c <| start_fut := FPending |> <| intr_start := IArmed |> <| do_connect := EPending |>
                        <| conn_timer := Some (now c + RESOLVE_TIMEOUT) |> <| t_start := (t_start c) <| pc := PS_Resolve |> |>)
| SResolved c r g : l = LResolveDone r g -> pc (t_start c) = PS_Resolve -> do_connect c = EPending ->
    step_atom l c [] (c <| do_connect := match r with None => EOk | Some e => EErr e end |> <| groups := g |>)
| STcpDone c (r : option exc) g : l = LTcpDone r -> pc (t_start c) = PS_Tcp g -> do_connect c = EPending ->
    step_atom l c [] (c <| do_connect := match r with None => EOk | Some e => EErr e end |>)
| SConnTimerNone c : runs l TStart -> step_atom l c [] (c <| conn_timer := None |>)
| SStartTcp c g : runs l TStart -> pc (t_start c) = PS_Resolve \/ (exists g', pc (t_start c) = PS_Tcp g') ->
    step_atom l c [] (start_tcp_attempt c g)
| SSockObj c : runs l TStart -> step_atom l c [] (c <| sock_obj := true |>)
| SSocketAssigned c : runs l TStart ->
    step_atom l c [] (c <| socket := true |> <| sock_obj := false |> <| intr_start := IExited |> <| conn_timer := None |>)
| SSockOpen c g : runs l TStart -> pc (t_start c) = PS_Tcp g -> cs c <> Closed ->
    step_atom l c [OTaskDone TStart TOk] (fst (finish_task (set_state c SockOpen) TStart TOk))
| SStartExit c : runs l TStart -> step_atom l c [] (c <| intr_start := IExited |> <| conn_timer := None |>)
(* finish_connection *)
| SFinish c lg : l = LFinish lg -> cs c = SockOpen -> pc (t_finish c) = PNone ->
    step_atom l c [] (c <| finish_fut := FPending |> <| intr_finish := IArmed |> <| login := lg |> <| helper_obj := HOpen |>
                        <| transport := TOpen |> <| made_waiter := EPending |> <| t_finish := (t_finish c) <| pc := PF_Create |> |>)
| SMade c : l = LMade -> transport c = TOpen -> made c = false -> noise c = true -> step_atom l c [OWrite []] (c <| made := true |>)
| SMadePlain c : l = LMade -> transport c = TOpen -> made c = false -> noise c = false ->
    step_atom l c [] (c <| made := true |> <| ready := ROk |>)
| SMadeWaiter c : l = LMadeWaiter -> made_waiter c = EPending -> step_atom l c [] (c <| made_waiter := EOk |>)
| SHelperAssigned c : runs l TFinish -> pc (t_finish c) = PF_Create ->
    step_atom l c [] (c <| helper := helper_obj c |> <| hs_timer := Some (now c + HANDSHAKE_TIMEOUT) |>)
| SPcReady c : runs l TFinish -> pc (t_finish c) = PF_Create ->
    step_atom l c [] (set_task c TFinish ((get_task c TFinish) <| pc := PF_Ready |>))
| SHsTimerNone c : runs l TFinish \/ l = LTimer TkHandshake -> step_atom l c [] (c <| hs_timer := None |>)
| SHsDone c : runs l TFinish -> pc (t_finish c) = PF_Create \/ pc (t_finish c) = PF_Ready -> cs c <> Closed ->
    step_atom l c [] (internal_handlers (set_state (set_task c TFinish ((get_task c TFinish) <| pc := PF_Hello (next_cid c) |>)) HsDone))
| SFinishExit c : runs l TFinish -> step_atom l c [] (c <| intr_finish := IExited |> <| hs_timer := None |>)
| SFinishExited c : runs l TFinish -> step_atom l c [] (c <| intr_finish := IExited |>)
| SConnected c cid : runs l TFinish -> pc (t_finish c) = PF_Hello cid -> cs c <> Closed ->
    step_atom l c [OTaskDone TFinish TOk]
      (fst (finish_task (schedule_keep_alive (set_state c Connected <| ever_connected := true |>)) TFinish TOk))
(* disconnect() and force_disconnect() *)
| SExpected c : initiates_locally l -> step_atom l c [] (c <| expected_disconnect := true |>)
| SDiscWait c : l = LDisconnect -> pc (t_disc c) = PNone -> finish_fut c = FPending ->
    step_atom l c [] (c <| disc_timer := Some (now c + DISCONNECT_CONNECT_TIMEOUT) |> <| disc_wait_done := false |>
                        <| t_disc := (t_disc c) <| pc := PD_Wait |> |>)
| SPcDiscWait c : l = LDisconnect -> pc (t_disc c) = PNone -> step_atom l c [] (set_task c TDisc ((get_task c TDisc) <| pc := PD_Wait |>))
| SPcDiscResp c cid : runs l TDisc -> (exists k, In k (calls c) /\ c_id k = cid /\ c_owner k = TDisc) ->
    step_atom l c [] (set_task c TDisc ((get_task c TDisc) <| pc := PD_Resp cid |>))
| SDiscTimerNone c : runs l TDisc -> step_atom l c [] (c <| disc_timer := None |>)
| SDiscWaitDone c : l = LDiscWaitDone -> step_atom l c [] (c <| disc_wait_done := true |> <| disc_timer := None |>)
| SDiscWaitTimeout c : l = LTimer TkDiscWait -> step_atom l c [] (c <| disc_timer := None |> <| disc_wait_done := true |>)
(* subscriptions of the user *)
| SSub c ty u : l = LSub ty u -> step_atom l c [] (add_handler c ty (HUser u))
| SUnsub c ty u : l = LUnsub ty u -> step_atom l c [] (remove_handler c ty (HUser u))
(* transport and environment *)
| STransportFail c e : carries_data l -> transport c <> TNone -> transport c <> TLost ->
    step_atom l c [] (c <| transport := TClosing (Some e) |>)
| SLost c e : l = LLost e -> transport c = TOpen -> step_atom l c [] (c <| transport := TClosing e |>)
| STransportLost c e : l = LConnLostCb -> transport c = TClosing e -> step_atom l c [] (c <| transport := TLost |>)
| SWriteFails c b : l = LWriteFails b -> step_atom l c [] (c <| write_fails := b |>)
| SAdvance c t : l = LAdvance t -> now c <= t -> forallb (fun d => Z.leb t d) (armed_deadlines c) = true -> step_atom l c [] (c <| now := t |>)
(* keep-alive *)
| SPingTimerNone c : l = LTimer TkPing -> due (ping_timer c) c = true -> step_atom l c [] (c <| ping_timer := None |>)
| SPongArm c : l = LTimer TkPing -> handshake_complete c = true -> pong_timer c = None ->
    step_atom l c [] (c <| pong_timer := Some (now c + keep_alive_timeout c) |>)
| SKeepAlive c : l = LTimer TkPing -> step_atom l c [] (schedule_keep_alive c).

Notation spath l := (path (step_atom l)).

Lemma cpath_spath l c o c' : cpath c o c' -> spath l c o c'.
Proof. apply path_incl. exact (SClose l). Qed.
Lemma dpath_spath l c o c' : carries_data l -> dpath c o c' -> spath l c o c'.
Proof. intro H. apply path_incl. exact (fun c o c' => SData l c o c' H). Qed.

Section Tasks.
Variable l : label.

Lemma set_do_connect_id c f : do_connect c = f -> c <| do_connect := f |> = c.
Proof. intros <-. destruct c; reflexivity. Qed.
Lemma set_made_waiter_id c f : made_waiter c = f -> c <| made_waiter := f |> = c.
Proof. intros <-. destruct c; reflexivity. Qed.

Lemma path_cancel_awaited c t k : cancels l t -> pc k = pc (get_task c t) -> spath l c [] (fst (cancel_awaited c t k)).
Proof.
  intros Ha Hk.
  assert (D : pc (get_task c t) = PS_Resolve \/ (exists g, pc (get_task c t) = PS_Tcp g) ->
              spath l c [] (fst (let '(f, b) := cancel_efut (do_connect c) in (c <| do_connect := f |>, b)))).
  { intro Hp. unfold cancel_efut. destruct (do_connect c) eqn:E; cbn [fst]; try (rewrite (set_do_connect_id c _ E); apply path_nil).
    apply path_one. exact (SDoConnectCancel l c t Ha Hp E). }
  assert (K : forall cid, waits_for (pc (get_task c t)) cid ->
              spath l c [] (fst (match get_call c cid with
                               | Some kk => match c_fut kk with
                                            | CPending => (upd_call c cid (fun x => x <| c_fut := CCancelled |>), true)
                                            | _ => (c, false) end
                               | None => (c, false) end))).
  { intros cid Hw. destruct (get_call c cid) as [kk|] eqn:Ek; [|apply path_nil]. destruct (c_fut kk) eqn:Ef; try apply path_nil.
    apply path_one. exact (SCallCancel l c t cid kk Ha Hw Ek Ef). }
  unfold cancel_awaited. rewrite Hk. destruct (pc (get_task c t)) eqn:Ep; try apply path_nil.
  - (* PS_Resolve *) apply D. left. reflexivity.
  - (* PS_Tcp *) apply D. right. eexists. reflexivity.
  - (* PF_Create *) unfold cancel_efut. destruct (made_waiter c) eqn:E; cbn [fst]; try (rewrite (set_made_waiter_id c _ E); apply path_nil).
    apply path_one. exact (SMadeWaiterCancel l c t Ha Ep E).
  - (* PF_Ready *) destruct (ready c) eqn:E; try apply path_nil. apply path_one. exact (SReadyCancel l c t Ha Ep E).
  - (* PF_Hello *) apply K. left. reflexivity.
  - (* PD_Wait *) destruct (disc_wait_done c) eqn:E; [apply path_nil|]. apply path_one. exact (SDiscWaitCancel l c t Ha Ep E).
  - (* PD_Resp *) apply K. right. left. reflexivity.
  - (* PC_Wait *) apply K. right. right. reflexivity.
Qed.

Lemma get_task_cancel_awaited c t k t' : get_task (fst (cancel_awaited c t k)) t' = get_task c t'.
Proof. unfold cancel_awaited, cancel_efut. repeat dm; destruct t'; reflexivity. Qed.

Lemma path_cancel_task c t : cancels l t -> spath l c [] (cancel_task c t).
Proof.
  intro Ha. unfold cancel_task. destruct (task_running (get_task c t)) eqn:Er; cbn [negb]; [|apply path_nil].
  set (k := get_task c t) in *. set (k1 := k <| ncancel := S (ncancel k) |>).
  pose proof (path_cancel_awaited c t k1 Ha eq_refl) as P. pose proof (get_task_cancel_awaited c t k1 t) as G.
  destruct (cancel_awaited c t k1) as [c1 d]. cbn [fst] in P, G.
  pose proof (fun b => STaskCancel l c1 t b Ha) as Q. rewrite G in Q.
  destruct d; (eapply path_then; [exact P|apply path_one, Q; [exact Er|]|pobs]); [destruct (pc k)|]; auto.
Qed.

Lemma path_take_cancel c t : runs l t -> spath l c [] (fst (take_cancel c t)).
Proof.
  intro Ha. unfold take_cancel. destruct (must_cancel (get_task c t)) eqn:E; cbn [fst]; [|apply path_nil].
  apply path_one, (STask l c t _ Ha), TmTake, E.
Qed.

Lemma path_timeout_exit c t e : runs l t -> spath l c [] (fst (timeout_exit c t e)).
Proof.
  intro Ha. unfold timeout_exit. destruct (expiring (get_task c t)) eqn:E; [|apply path_nil].
  assert (P : spath l c [] (set_task c t ((get_task c t) <| expiring := false |> <| ncancel := Nat.pred (ncancel (get_task c t)) |>)))
    by (apply path_one, (STask l c t _ Ha), TmTimeoutExit, E).
  destruct e; cbn [fst]; try exact P. destruct (Nat.eqb _ 0); exact P.
Qed.

Lemma path_interrupt_exit c t e : runs l t -> spath l c [] (fst (interrupt_exit c t e)).
Proof.
  intro Ha. unfold interrupt_exit. destruct (interrupted (get_task c t)) eqn:E; [|apply path_nil].
  destruct e; cbn [fst]; try apply path_nil.
  destruct (Nat.eqb _ 0); cbn [fst]; apply path_one, (STask l c t _ Ha), TmInterruptExit, E.
Qed.

Lemma path_finish_task c t r : runs l t -> ends_closed c t r -> spath l c (snd (finish_task c t r)) (fst (finish_task c t r)).
Proof. intros Ha He. apply path_one, STaskDone; assumption. Qed.

Lemma path_call_begin c owner send types ap st tmo : runs l owner -> (forall x, owner = TCall x -> x = next_cid c) ->
  spath l c (snd (fst (fst (call_begin c owner send types ap st tmo)))) (fst (fst (fst (call_begin c owner send types ap st tmo)))).
Proof.
  intros Ho Hx. unfold call_begin. pose proof (path_send_messages c send) as P. pose proof (send_messages_none c send) as K.
  destruct (send_messages c send) as [[c1 o] ex]. cbn [fst snd] in P. apply (cpath_spath l) in P.
  destruct ex; cbn [fst snd]; [exact P|].
  destruct (K c1 o eq_refl) as [-> Hh].
  eapply path_then; [exact P|apply path_one; exact (SNewCall l c owner types ap st tmo Ho Hx Hh)|symmetry; apply app_nil_r].
Qed.

Lemma path_call_finally c t cid : runs l t -> awaits (pc (get_task c t)) t cid -> spath l c [] (call_finally c cid).
Proof.
  intros Hr Ha. destruct (get_call c cid) as [k|] eqn:Ek; [apply path_one, (SCallFinally l c t cid k Hr Ha Ek)|].
  unfold call_finally. rewrite Ek. apply path_nil.
Qed.

Lemma call_begin_none c owner send types ap st tmo c2 o cid :
  call_begin c owner send types ap st tmo = (c2, o, None, cid) -> c2 = register_call c owner types ap st tmo /\ cid = next_cid c.
Proof.
  unfold call_begin. pose proof (send_messages_none c send) as K. destruct (send_messages c send) as [[c1 o1] [e|]].
  - intro H. apply pair_inv in H. destruct H as [H _]. apply pair_inv in H. destruct H as [_ H]. discriminate H.
  - destruct (K c1 o1 eq_refl) as [-> _]. intro H. apply pair_inv in H. destruct H as [H <-]. apply pair_inv in H. destruct H as [H _].
    apply pair_inv in H. destruct H as [<- _]. split; reflexivity.
Qed.
Lemma calls_fold_add tys h : forall x, calls (fold_left (fun a ty => add_handler a ty h) tys x) = calls x.
Proof. apply (fold_left_view calls). intros a ty. unfold add_handler. destruct (existsb _ _); reflexivity. Qed.
Lemma calls_register_call c owner types ap st tmo : calls (register_call c owner types ap st tmo) = calls c ++ [new_call c owner types ap st tmo].
Proof. unfold register_call. rewrite calls_fold_add. reflexivity. Qed.

(* the common tail of a failing connect phase and of a phase that finds the connection closed: cleanup, then the task ends *)
Lemma path_cleanup_finish c t (mk : conn -> tres) (post : conn -> conn) :
  runs l t -> (forall x, spath l x [] (post x)) -> (forall x, cs (post x) = cs x) -> (forall x, exists e, mk x = TRaise e) \/ (t = TDisc) ->
  let r := (let '(c2, o) := cleanup c in let '(c4, o2) := finish_task (post c2) t (mk c2) in (c4, o ++ o2)) in
  spath l c (snd r) (fst r).
Proof.
  intros Ha Hp Hcs Hr. pose proof (path_cleanup c) as P. apply (cpath_spath l) in P. pose proof (cs_cleanup c) as Hc.
  destruct (cleanup c) as [c2 o]. cbn [fst snd] in P, Hc.
  assert (He : ends_closed (post c2) t (mk c2)).
  { destruct Hr as [Hr| ->]; [|exact I]. destruct t; try exact I; (split; [rewrite Hcs; exact Hc|apply Hr]). }
  cbn zeta. pose proof (path_finish_task (post c2) t (mk c2) Ha He) as P2. destruct (finish_task (post c2) t (mk c2)) as [c4 o2].
  cbn [fst snd] in *. eapply path_then; [exact P| |pobs]. eapply path_then; [apply Hp|exact P2|pobs].
Qed.

Lemma path_start_fail c e : runs l TStart -> spath l c (snd (start_fail c e)) (fst (start_fail c e)).
Proof.
  intro Ha. unfold start_fail. pose proof (path_interrupt_exit c TStart e Ha) as P0. destruct (interrupt_exit c TStart e) as [c0 e1]. cbn [fst] in P0.
  pose proof (path_cleanup_finish (c0 <| intr_start := IExited |> <| conn_timer := None |>) TStart (fun c2 => TRaise (wrap_fatal c2 e1))
                set_start_future Ha (fun x => cpath_spath l _ _ _ (path_set_start_future x)) cs_set_start_future (or_introl (fun x => ex_intro _ _ eq_refl))) as P.
  cbn zeta in P. destruct (cleanup (c0 <| intr_start := IExited |> <| conn_timer := None |>)) as [c2 o].
  destruct (finish_task (set_start_future c2) TStart (TRaise (wrap_fatal c2 e1))) as [c4 o2]. cbn [fst snd] in *.
  eapply path_then; [exact P0| |pobs]. eapply path_atom_then; [apply SStartExit, Ha|exact P|pobs].
Qed.

Lemma pc_start_set_start_future c : pc (t_start (set_start_future c)) = pc (t_start c).
Proof. unfold set_start_future. destruct (start_fut c); reflexivity. Qed.
Lemma pc_finish_set_finish_future c : pc (t_finish (set_finish_future c)) = pc (t_finish c).
Proof. unfold set_finish_future. destruct (finish_fut c); reflexivity. Qed.
Lemma pc_take_cancel c t : pc (get_task (fst (take_cancel c t)) t) = pc (get_task c t).
Proof.
  unfold take_cancel. destruct (must_cancel (get_task c t)); [|reflexivity]. cbn [fst].
  destruct t; try reflexivity. cbn [get_task set_task]. cbn.
  induction (call_tasks c) as [|p r IH]; [reflexivity|]. cbn. destruct (Nat.eqb (fst p) cid) eqn:Ep; cbn; [rewrite Nat.eqb_refl; reflexivity|].
  rewrite Ep. exact IH.
Qed.

Lemma pc_start_timeout_exit c e : pc (t_start (fst (timeout_exit c TStart e))) = pc (t_start c).
Proof. unfold timeout_exit. destruct (expiring _); [|reflexivity]. destruct e; try reflexivity. destruct (Nat.eqb _ 0); reflexivity. Qed.

Lemma path_start_success c g : runs l TStart -> pc (t_start c) = PS_Tcp g -> spath l c (snd (start_success c)) (fst (start_success c)).
Proof.
  intros Ha Hp. unfold start_success.
  set (c2 := set_start_future (c <| socket := true |> <| sock_obj := false |> <| intr_start := IExited |> <| conn_timer := None |>)).
  assert (P2 : spath l c [] c2).
  { eapply path_atom_then; [apply SSocketAssigned, Ha|apply cpath_spath, path_set_start_future|pobs]. }
  assert (Hp2 : pc (t_start c2) = PS_Tcp g) by (unfold c2; rewrite pc_start_set_start_future; exact Hp).
  destruct (closed_or_open (cs c2)) as [Ec|Ec].
  - (* closed while the socket was being connected *)
    rewrite when_closed by exact Ec.
    pose proof (path_cleanup_finish c2 TStart (fun c3 => TRaise (wrap_fatal c3 Interrupted)) (fun x => x) Ha (fun x => path_nil x)
                  (fun x => eq_refl) (or_introl (fun x => ex_intro _ _ eq_refl))) as P.
    cbn zeta in P. destruct (cleanup c2) as [c3 o]. destruct (finish_task c3 TStart (TRaise (wrap_fatal c3 Interrupted))) as [c4 o2].
    cbn [fst snd] in *. eapply path_then; [exact P2|exact P|pobs].
  - rewrite when_open by exact Ec. eapply path_then; [exact P2|apply path_one, (SSockOpen l c2 g Ha Hp2 Ec)|pobs].
Qed.

Lemma path_wake_start c r : runs l TStart -> wake_start c = Some r -> spath l c (snd r) (fst r).
Proof.
  intro Ha. unfold wake_start. intro E.
  destruct (pc (get_task c TStart)) as [| |g| | | | | | |] eqn:Ep; try discriminate.
  - (* PS_Resolve *) destruct (_ || _); [|discriminate].
    pose proof (pc_take_cancel c TStart) as Hp1. rewrite Ep in Hp1.
    pose proof (path_take_cancel c TStart Ha) as P1. destruct (take_cancel c TStart) as [c1 mc]. cbn [fst] in P1, Hp1.
    match type of E with match ?d with _ => _ end = _ => destruct d as [|e] end. (* d: what the await delivers, a result or the exception e *)
    + apply some_inj in E. subst r. cbn [fst snd]. eapply path_then; [exact P1| |pobs].
      eapply path_atom_then; [apply SConnTimerNone, Ha|apply path_one, (SStartTcp l _ _ Ha); left; exact Hp1|pobs].
    + pose proof (path_timeout_exit (c1 <| conn_timer := None |>) TStart e Ha) as P2.
      destruct (timeout_exit (c1 <| conn_timer := None |>) TStart e) as [c2 e1]. cbn [fst] in P2.
      apply some_inj in E. subst r. eapply path_then; [exact P1| |pobs].
      eapply path_atom_then; [apply SConnTimerNone, Ha| |pobs]. eapply path_then; [exact P2|apply path_start_fail, Ha|pobs].
  - (* PS_Tcp *) destruct (_ || _); [|discriminate].
    pose proof (pc_take_cancel c TStart) as Hp1. rewrite Ep in Hp1.
    pose proof (path_take_cancel c TStart Ha) as P1. destruct (take_cancel c TStart) as [c1 mc]. cbn [fst] in P1, Hp1.
    match type of E with match ?d with _ => _ end = _ => destruct d as [|e] end.
    + apply some_inj in E. subst r. eapply path_then; [exact P1| |pobs].
      eapply path_atom_then; [apply SSockObj, Ha|apply (path_start_success _ g Ha); exact Hp1|pobs].
    + pose proof (path_timeout_exit (c1 <| conn_timer := None |>) TStart e Ha) as P2.
      pose proof (pc_start_timeout_exit (c1 <| conn_timer := None |>) e) as Hp2.
      destruct (timeout_exit (c1 <| conn_timer := None |>) TStart e) as [c2 e1]. cbn [fst] in P2, Hp2.
      change (pc (t_start (c1 <| conn_timer := None |>))) with (pc (get_task c1 TStart)) in Hp2. rewrite Hp1 in Hp2.
      assert (P : spath l c [] c2).
      { eapply path_then; [exact P1| |pobs]. eapply path_atom_then; [apply SConnTimerNone, Ha|exact P2|pobs]. }
      destruct (is_oserror e1).
      * destruct g as [|[|g']];
          apply some_inj in E; subst r; (eapply path_then; [exact P| |pobs]); try apply path_start_fail, Ha.
        cbn [fst snd]. apply path_one, (SStartTcp l _ _ Ha). right. exists (S (S g')). exact Hp2.
      * apply some_inj in E. subst r. eapply path_then; [exact P|apply path_start_fail, Ha|pobs].
Qed.

Lemma path_finish_fail c e : runs l TFinish -> spath l c (snd (finish_fail c e)) (fst (finish_fail c e)).
Proof.
  intro Ha. unfold finish_fail. pose proof (path_interrupt_exit c TFinish e Ha) as P0. destruct (interrupt_exit c TFinish e) as [c0 e1]. cbn [fst] in P0.
  pose proof (path_cleanup_finish (c0 <| intr_finish := IExited |> <| hs_timer := None |>) TFinish (fun c2 => TRaise (wrap_fatal c2 e1))
                set_finish_future Ha (fun x => cpath_spath l _ _ _ (path_set_finish_future x)) cs_set_finish_future (or_introl (fun x => ex_intro _ _ eq_refl))) as P.
  cbn zeta in P. destruct (cleanup (c0 <| intr_finish := IExited |> <| hs_timer := None |>)) as [c2 o].
  destruct (finish_task (set_finish_future c2) TFinish (TRaise (wrap_fatal c2 e1))) as [c4 o2]. cbn [fst snd] in *.
  eapply path_then; [exact P0| |pobs]. eapply path_atom_then; [apply SFinishExit, Ha|exact P|pobs].
Qed.

Lemma path_finish_after_ready c : runs l TFinish -> pc (t_finish c) = PF_Create \/ pc (t_finish c) = PF_Ready ->
  spath l c (snd (finish_after_ready c)) (fst (finish_after_ready c)).
Proof.
  intros Ha Hp. unfold finish_after_ready. set (c0 := c <| hs_timer := None |>).
  assert (P0 : spath l c [] c0) by (apply path_one, SHsTimerNone; left; exact Ha).
  destruct (closed_or_open (cs c0)) as [Ec|Ec]; [rewrite when_closed by exact Ec; eapply path_then; [exact P0|apply path_finish_fail, Ha|pobs]|].
  rewrite when_open by exact Ec.
  set (c1 := internal_handlers (set_state (set_task c0 TFinish ((get_task c0 TFinish) <| pc := PF_Hello (next_cid c0) |>)) HsDone)).
  assert (P1 : spath l c [] c1) by (eapply path_then; [exact P0|apply path_one, (SHsDone l c0 Ha Hp Ec)|pobs]).
  match goal with |- context [call_begin c1 ?a ?b ?d ?e ?f ?g] =>
    pose proof (path_call_begin c1 a b d e f g Ha ltac:(discriminate)) as P2; destruct (call_begin c1 a b d e f g) as [[[c2 o] ex] cid] end.
  cbn [fst snd] in P2. destruct ex as [e|].
  - pose proof (path_finish_fail c2 e Ha) as P3. destruct (finish_fail c2 e) as [c3 o3]. cbn [fst snd] in *.
    eapply path_then; [exact P1| |pobs]. eapply path_then; [exact P2|exact P3|pobs].
  - cbn [fst snd]. eapply path_then; [exact P1|exact P2|pobs].
Qed.

Lemma path_finish_success c cid : runs l TFinish -> pc (t_finish c) = PF_Hello cid -> spath l c (snd (finish_success c)) (fst (finish_success c)).
Proof.
  intros Ha Hp. unfold finish_success. set (c2 := set_finish_future (c <| intr_finish := IExited |>)).
  assert (P2 : spath l c [] c2) by (eapply path_atom_then; [apply SFinishExited, Ha|apply cpath_spath, path_set_finish_future|pobs]).
  assert (Hp2 : pc (t_finish c2) = PF_Hello cid) by (unfold c2; rewrite pc_finish_set_finish_future; exact Hp).
  destruct (closed_or_open (cs c2)) as [Ec|Ec].
  - (* closed while the hello was awaited *)
    rewrite when_closed by exact Ec.
    pose proof (path_cleanup_finish c2 TFinish (fun c3 => TRaise (wrap_fatal c3 Interrupted)) (fun x => x) Ha (fun x => path_nil x)
                  (fun x => eq_refl) (or_introl (fun x => ex_intro _ _ eq_refl))) as P.
    cbn zeta in P. destruct (cleanup c2) as [c3 o]. destruct (finish_task c3 TFinish (TRaise (wrap_fatal c3 Interrupted))) as [c4 o2].
    cbn [fst snd] in *. eapply path_then; [exact P2|exact P|pobs].
  - rewrite when_open by exact Ec. eapply path_then; [exact P2|apply path_one, (SConnected l c2 cid Ha Hp2 Ec)|pobs].
Qed.

Lemma t_finish_fold_remove tys h : forall x, t_finish (fold_left (fun a ty => remove_handler a ty h) tys x) = t_finish x.
Proof. apply (fold_left_view t_finish). reflexivity. Qed.
Lemma t_finish_call_finally c cid : t_finish (call_finally c cid) = t_finish c.
Proof.
  unfold call_finally. destruct (get_call c cid) as [k|]; [|reflexivity]. cbv zeta.
  match goal with |- t_finish (?x <| waiters := _ |>) = _ => change (t_finish x = t_finish c) end.
  rewrite t_finish_fold_remove. reflexivity.
Qed.

Lemma path_wake_finish c r : runs l TFinish -> wake_finish c = Some r -> spath l c (snd r) (fst r).
Proof.
  intro Ha. unfold wake_finish. intro E.
  destruct (pc (get_task c TFinish)) eqn:Ep; try discriminate.
  - (* PF_Create *)
    destruct (_ || _); [|discriminate].
    pose proof (pc_take_cancel c TFinish) as Hp1. rewrite Ep in Hp1.
    pose proof (path_take_cancel c TFinish Ha) as P1. destruct (take_cancel c TFinish) as [c1 mc]. cbn [fst] in P1, Hp1.
    match type of E with match ?d with _ => _ end = _ => destruct d as [|e] end.
    + set (c2 := c1 <| helper := helper_obj c1 |> <| hs_timer := Some (now c1 + HANDSHAKE_TIMEOUT) |>) in *.
      assert (P2 : spath l c [] c2) by (eapply path_then; [exact P1|apply path_one, (SHelperAssigned l c1 Ha Hp1)|pobs]).
      destruct (ready c2); apply some_inj in E; subst r; (eapply path_then; [exact P2| |pobs]);
        first [apply (path_finish_after_ready _ Ha); left; exact Hp1 | apply path_finish_fail, Ha | apply path_one, (SPcReady l c2 Ha Hp1)].
    + destruct (transport c1) eqn:Et;
        match type of E with context [finish_fail ?x e] => pose proof (path_finish_fail x e Ha) as P3; destruct (finish_fail x e) as [c3 o3] end;
        apply some_inj in E; subst r; cbn [fst snd] in *; (eapply path_then; [exact P1| |pobs]); try exact P3.
      eapply path_atom_then; [apply SClose, ATransportClose, Et|exact P3|pobs].
  - (* PF_Ready *)
    destruct (_ || _); [|discriminate].
    pose proof (pc_take_cancel c TFinish) as Hp1. rewrite Ep in Hp1.
    pose proof (path_take_cancel c TFinish Ha) as P1. destruct (take_cancel c TFinish) as [c1 mc]. cbn [fst] in P1, Hp1.
    destruct mc; [|destruct (ready c1)]; apply some_inj in E; subst r; (eapply path_then; [exact P1| |pobs]);
      first [apply (path_finish_after_ready _ Ha); right; exact Hp1 | apply path_finish_fail, Ha].
  - (* PF_Hello *)
    destruct (get_call c cid) as [kk|]; [|discriminate].
    destruct (_ || _); [|discriminate].
    pose proof (pc_take_cancel c TFinish) as Hp1. rewrite Ep in Hp1.
    pose proof (path_take_cancel c TFinish Ha) as P1. destruct (take_cancel c TFinish) as [c1 mc]. cbn [fst] in P1, Hp1.
    assert (P2 : spath l c [] (call_finally c1 cid))
      by (eapply path_then; [exact P1|apply (path_call_finally c1 TFinish cid Ha); rewrite Hp1; split; reflexivity|pobs]).
    assert (Hp2 : pc (t_finish (call_finally c1 cid)) = PF_Hello cid) by (rewrite t_finish_call_finally; exact Hp1).
    match type of E with match ?d with _ => _ end = _ => destruct d as [|e] end;
      [destruct (check_hello_login _ _)|]; apply some_inj in E; subst r; (eapply path_then; [exact P2| |pobs]);
      first [apply (path_finish_success _ cid Ha Hp2) | apply path_finish_fail, Ha].
Qed.

Lemma path_disconnect_after_wait c : initiates_locally l -> runs l TDisc ->
  spath l c (snd (disconnect_after_wait c)) (fst (disconnect_after_wait c)).
Proof.
  intros Hl Ha. unfold disconnect_after_wait. set (c1 := c <| expected_disconnect := true |>).
  assert (P1 : spath l c [] c1) by apply path_one, SExpected, Hl.
  assert (CF : forall x, spath l x (snd (let '(c3, o3) := cleanup x in let '(c4, o4) := finish_task c3 TDisc TOk in (c4, o3 ++ o4)))
                               (fst (let '(c3, o3) := cleanup x in let '(c4, o4) := finish_task c3 TDisc TOk in (c4, o3 ++ o4))))
    by (intro x; exact (path_cleanup_finish x TDisc (fun _ => TOk) (fun y => y) Ha (fun y => path_nil y) (fun y => eq_refl) (or_intror eq_refl))).
  destruct (handshake_complete c1).
  - match goal with |- context [call_begin c1 ?a ?b ?d ?e ?f ?g] =>
      pose proof (path_call_begin c1 a b d e f g Ha ltac:(discriminate)) as P2; pose proof (call_begin_none c1 a b d e f g) as N;
      destruct (call_begin c1 a b d e f g) as [[[c2 o] ex] cid] end.
    cbn [fst snd] in P2. assert (P : spath l c o c2) by (eapply path_then; [exact P1|exact P2|pobs]).
    destruct ex as [e|].
    + (* the request could not be written: a library error is swallowed and the connection closed, any other is raised *)
      destruct e; try (match goal with |- context [finish_task ?x TDisc ?r] =>
                         pose proof (path_finish_task x TDisc r Ha I) as P3; destruct (finish_task x TDisc r) as [c3 o3] end;
                       cbn [fst snd] in *; eapply path_then; [exact P|exact P3|pobs]).
      specialize (CF c2). destruct (cleanup c2) as [c3 o3]. destruct (finish_task c3 TDisc TOk) as [c4 o4]. cbn [fst snd] in *.
      eapply path_then; [exact P|exact CF|pobs].
    + (* the task goes on to await the call it has just registered *)
      destruct (N c2 o cid eq_refl) as [E2 Ec]. cbn [fst snd]. eapply path_then; [exact P|apply path_one, (SPcDiscResp l c2 cid Ha)|pobs].
      eexists. rewrite E2, calls_register_call, Ec. split; [apply in_or_app; right; left; reflexivity|split; reflexivity].
  - specialize (CF c1). destruct (cleanup c1) as [c3 o3]. destruct (finish_task c3 TDisc TOk) as [c4 o4]. cbn [fst snd] in *.
    eapply path_then; [exact P1|exact CF|pobs].
Qed.

Lemma path_wake_disc c r : initiates_locally l -> runs l TDisc -> wake_disc c = Some r -> spath l c (snd r) (fst r).
Proof.
  intros Hl Ha. unfold wake_disc. intro E.
  destruct (pc (get_task c TDisc)) eqn:Ep; try discriminate.
  - (* PD_Wait *) destruct (_ || _); [|discriminate].
    pose proof (path_take_cancel c TDisc Ha) as P1. destruct (take_cancel c TDisc) as [c1 mc]. cbn [fst] in P1.
    set (c2 := c1 <| disc_timer := None |>) in *.
    assert (P2 : spath l c [] c2) by (eapply path_then; [exact P1|apply path_one, SDiscTimerNone, Ha|pobs]).
    destruct mc; apply some_inj in E; subst r; (eapply path_then; [exact P2| |pobs]); [apply path_finish_task; [exact Ha|exact I]|].
    destruct (finish_fut c2); try apply (path_disconnect_after_wait _ Hl Ha).
    destruct (fatal c2) eqn:Ef; [apply (path_disconnect_after_wait _ Hl Ha)|].
    eapply path_atom_then; [apply SClose, AFatal, Ef|apply (path_disconnect_after_wait _ Hl Ha)|pobs].
  - (* PD_Resp *) destruct (get_call c cid) as [kk|]; [|discriminate].
    destruct (_ || _); [|discriminate].
    pose proof (pc_take_cancel c TDisc) as Hp1. rewrite Ep in Hp1.
    pose proof (path_take_cancel c TDisc Ha) as P1. destruct (take_cancel c TDisc) as [c1 mc]. cbn [fst] in P1, Hp1.
    assert (P2 : spath l c [] (call_finally c1 cid))
      by (eapply path_then; [exact P1|apply (path_call_finally c1 TDisc cid Ha); rewrite Hp1; split; reflexivity|pobs]).
    pose proof (path_cleanup_finish (call_finally c1 cid) TDisc (fun _ => TOk) (fun y => y) Ha (fun y => path_nil y) (fun y => eq_refl) (or_intror eq_refl)) as CF. cbn zeta in CF.
    destruct (cleanup (call_finally c1 cid)) as [c3 o3]. destruct (finish_task c3 TDisc TOk) as [c4 o4]. cbn [fst snd] in CF.
    match type of E with match ?d with _ => _ end = _ => destruct d as [|[]] end; apply some_inj in E; subst r;
      (eapply path_then; [exact P2| |pobs]); first [exact CF | apply path_finish_task; [exact Ha|exact I]].
Qed.

Lemma path_wake_call c cid r : runs l (TCall cid) -> wake_call c cid = Some r -> spath l c (snd r) (fst r).
Proof.
  intro Ha. unfold wake_call. intro E.
  destruct (pc (get_task c (TCall cid))) eqn:Ep; try discriminate.
  destruct (get_call c cid) as [kk|]; [|discriminate].
  destruct (_ || _); [|discriminate].
  pose proof (pc_take_cancel c (TCall cid)) as Hp1. rewrite Ep in Hp1.
  pose proof (path_take_cancel c (TCall cid) Ha) as P1. destruct (take_cancel c (TCall cid)) as [c1 mc]. cbn [fst] in P1, Hp1.
  apply some_inj in E. subst r. eapply path_then; [exact P1| |pobs].
  eapply path_then; [apply (path_call_finally c1 (TCall cid) cid Ha); rewrite Hp1; reflexivity|apply path_finish_task; [exact Ha|exact I]|pobs].
Qed.

End Tasks.

Theorem step_path c l c' o : step c l = Some (c', o) -> spath l c o c'.
Proof.
  (* `fin` : the label's result is a pair of named components *)
  assert (fin : forall (r : conn * list obs), Some r = Some (c', o) -> spath l c (snd r) (fst r) -> spath l c o c').
  { intros r E P. apply some_inj in E. subst r. exact P. }
  destruct l; cbn [step]; intro E.
  - (* LStart *)
    destruct (cs c) eqn:Ec; try (apply (fin _ E), path_one, SRaise).
    destruct (pc (t_start c)) eqn:Ep; try discriminate. apply (fin _ E), path_one, SStart; [reflexivity|assumption|assumption].
  - (* LFinish *)
    destruct (cs c) eqn:Ec; try (apply (fin _ E), path_one, SRaise).
    destruct (pc (t_finish c)) eqn:Ep; try discriminate. apply (fin _ E), path_one, SFinish; [reflexivity|assumption|assumption].
  - (* LDisconnect *)
    assert (Hl : initiates_locally LDisconnect) by (right; left; reflexivity).
    destruct (pc (t_disc c)) eqn:Ep; try discriminate.
    (* while finish_connection is under way disconnect() waits for it; otherwise it goes on at once *)
    destruct (finish_fut c) eqn:Ef; apply (fin _ E);
      first [ apply path_one, SDiscWait; [reflexivity|exact Ep|exact Ef]
            | eapply path_atom_then; [apply (SPcDiscWait LDisconnect c eq_refl Ep)|apply (path_disconnect_after_wait LDisconnect _ Hl eq_refl)|pobs] ].
  - (* LForce *)
    assert (Hl : initiates_locally LForce) by (left; reflexivity).
    set (c1 := c <| expected_disconnect := true |>) in *.
    assert (P1 : spath LForce c [] c1) by apply path_one, SExpected, Hl.
    assert (P2 : spath LForce c1 (snd (fst (if handshake_complete c1 then send_messages c1 [T_DISC_REQ] else (c1, [], None))))
                                (fst (fst (if handshake_complete c1 then send_messages c1 [T_DISC_REQ] else (c1, [], None))))).
    { destruct (handshake_complete c1); [apply cpath_spath, path_send_messages|apply path_nil]. }
    destruct (if handshake_complete c1 then send_messages c1 [T_DISC_REQ] else (c1, [], None)) as [[c2 o2] ex]. cbn [fst snd] in P2.
    assert (P : spath LForce c o2 c2) by (eapply path_then; [exact P1|exact P2|pobs]).
    (* no error or a library error: the connection is cleaned up; any other error escapes *)
    assert (CL : forall r, (let '(c3, o3) := cleanup c2 in Some (c3, o2 ++ o3)) = Some r -> spath LForce c (snd r) (fst r)).
    { intros r Er. pose proof (path_cleanup c2) as P3. apply (cpath_spath LForce) in P3. destruct (cleanup c2) as [c3 o3].
      apply some_inj in Er. subst r. eapply path_then; [exact P|exact P3|pobs]. }
    destruct ex as [e|]; [destruct e|]; first [exact (CL _ E) | apply (fin _ E); eapply path_then; [exact P|apply path_one, SRaise|pobs]].
  - (* LCallStart *)
    set (c0 := c <| call_tasks := call_tasks c ++ [(next_cid c, task0 <| pc := PC_Wait (next_cid c) |>)] |>) in *.
    assert (Hs : starts_call (LCallStart send types ap st timeout)) by (do 5 eexists; reflexivity).
    assert (P0 : spath (LCallStart send types ap st timeout) c [] c0) by apply path_one, SCallTask, Hs.
    match type of E with context [call_begin c0 ?a ?b ?d ?e ?f ?g] =>
      pose proof (path_call_begin (LCallStart send types ap st timeout) c0 a b d e f g (ex_intro _ _ eq_refl) ltac:(intros x Q; injection Q as <-; reflexivity)) as P1;
      assert (N1 : snd (fst (call_begin c0 a b d e f g)) <> None -> next_cid (fst (fst (fst (call_begin c0 a b d e f g)))) = next_cid c);
      [|destruct (call_begin c0 a b d e f g) as [[[c1 o1] ex] cid']] end.
    { (* the model skips the id of the failed request by bumping next_cid of the state before call_begin, SNextCid that of
         the state where the move is made: they agree, since a call_begin that raised only closed the connection *)
      unfold call_begin. pose proof (next_cid_cpath _ _ _ (path_send_messages c0 send)) as N. destruct (send_messages c0 send) as [[x ox] [e|]].
      - intros _. exact N.
      - intro Q. exfalso. apply Q. reflexivity. }
    cbn [fst snd] in P1, N1. destruct ex as [e|].
    + rewrite <- (N1 ltac:(discriminate)) in E.
      match type of E with context [finish_task ?x ?t ?r] =>
        pose proof (path_finish_task (LCallStart send types ap st timeout) x t r (ex_intro _ _ eq_refl) I) as P2; destruct (finish_task x t r) as [c3 o3] end.
      apply (fin _ E). cbn [fst snd] in *. eapply path_then; [exact P0| |pobs]. eapply path_then; [exact P1| |pobs].
      eapply path_atom_then; [apply SNextCid, Hs|exact P2|pobs].
    + apply (fin _ E). eapply path_then; [exact P0|exact P1|pobs].
  - (* LSend *)
    pose proof (path_send_messages c tys) as P. apply (cpath_spath (LSend tys)) in P. destruct (send_messages c tys) as [[c1 o1] ex].
    apply (fin _ E). cbn [fst snd] in *. destruct ex; [eapply path_then; [exact P|apply path_one, SRaise|pobs]|].
    eapply path_then; [exact P|apply path_nil|pobs].
  - (* LCancel *)
    destruct (task_running (get_task c t)) eqn:Er; apply (fin _ E); [|apply path_nil].
    eapply path_atom_then; [apply (SUserCancel (LCancel t) c t eq_refl Er)|apply path_cancel_task; reflexivity|pobs].
  - (* LSub *) apply (fin _ E), path_one, SSub. reflexivity.
  - (* LUnsub *) apply (fin _ E), path_one, SUnsub. reflexivity.
  - (* LResolveDone *)
    destruct (pc (t_start c)) eqn:Ep; try discriminate. destruct (do_connect c) eqn:Ed; try discriminate.
    apply (fin _ E), path_one, SResolved; [reflexivity|assumption|assumption].
  - (* LTcpDone *)
    destruct (pc (t_start c)) as [| |g| | | | | | |] eqn:Ep; try discriminate. destruct (do_connect c) eqn:Ed; try discriminate.
    apply (fin _ E), path_one, (STcpDone _ c r g); [reflexivity|assumption|assumption].
  - (* LMade *)
    destruct (transport c) eqn:Et; try discriminate. destruct (made c) eqn:Em; try discriminate.
    destruct (noise c) eqn:En; apply (fin _ E), path_one; [apply SMade|apply SMadePlain]; first [reflexivity|assumption].
  - (* LMadeWaiter *)
    destruct (made_waiter c) eqn:Em; try discriminate; apply (fin _ E); [apply path_one, SMadeWaiter; [reflexivity|exact Em]|apply path_nil].
  - (* LHelperReady *)
    destruct (ready c) eqn:Er; try discriminate. destruct (made c); try discriminate. destruct (transport c); try discriminate.
    destruct r as [e|]; [|apply (fin _ E), path_one, SClose, AReady, Er].
    pose proof (path_helper_error c e) as P. apply (cpath_spath (LHelperReady (Some e))) in P. destruct (helper_error c e) as [c1 o1].
    cbn [fst snd] in P. destruct (transport c1) eqn:Et; apply (fin _ E); cbn [fst snd];
      try (eapply path_then; [exact P|apply path_nil|pobs]).
    eapply path_then; [exact P|apply path_one, SClose, ATransportClose, Et|pobs].
  - (* LData *)
    assert (Hd : carries_data (LData items)) by (eexists; reflexivity).
    destruct (transport c); try discriminate. destruct (made c); try discriminate.
    pose proof (path_data_loop items c) as P. apply (dpath_spath _ _ _ _ Hd) in P. destruct (data_loop c items) as [[c1 o1] ex].
    cbn [fst snd] in P. destruct ex as [e|]; [|apply (fin _ E); exact P].
    destruct (transport c1) eqn:Et; apply (fin _ E); cbn [fst snd];
      try (eapply path_then; [exact P|apply path_one, SRaise|pobs]);
      (eapply path_then; [exact P| |pobs]; eapply path_atom_then; [apply (STransportFail _ c1 e Hd); congruence|apply path_one, SRaise|pobs]).
  - (* LEof *)
    destruct (transport c); try discriminate. destruct (made c); try discriminate.
    pose proof (path_helper_error c (Lib LSocketClosed)) as P. apply (cpath_spath LEof) in P. destruct (helper_error c (Lib LSocketClosed)) as [c1 o1].
    cbn [fst snd] in P. destruct (transport c1) eqn:Et; apply (fin _ E); cbn [fst snd];
      try (eapply path_then; [exact P|apply path_nil|pobs]).
    eapply path_then; [exact P|apply path_one, SClose, ATransportClose, Et|pobs].
  - (* LLost *) destruct (transport c) eqn:Et; try discriminate. apply (fin _ E), path_one, SLost; [reflexivity|exact Et].
  - (* LWriteFails *) apply (fin _ E), path_one, SWriteFails. reflexivity.
  - (* LAdvance *)
    destruct (Z.leb (now c) t) eqn:E1; [|discriminate]. destruct (forallb _ _) eqn:E2; [|discriminate].
    apply (fin _ E), path_one, SAdvance; [reflexivity|apply Z.leb_le, E1|exact E2].
  - (* LWake *)
    destruct t.
    + exact (path_wake_start (LWake TStart) c (c', o) eq_refl E).
    + exact (path_wake_finish (LWake TFinish) c (c', o) eq_refl E).
    + exact (path_wake_disc (LWake TDisc) c (c', o) (or_intror (or_intror eq_refl)) eq_refl E).
    + exact (path_wake_call (LWake (TCall cid)) c cid (c', o) eq_refl E).
  - (* LIntr *)
    destruct is_start.
    + destruct (start_fut c) eqn:Ef; try discriminate. destruct (intr_start c) eqn:Ei; try discriminate; apply (fin _ E); [|apply path_nil].
      eapply path_atom_then; [apply SIntrStart; first [reflexivity|assumption]|apply path_cancel_task; reflexivity|pobs].
    + destruct (finish_fut c) eqn:Ef; try discriminate. destruct (intr_finish c) eqn:Ei; try discriminate; apply (fin _ E); [|apply path_nil].
      eapply path_atom_then; [apply SIntrFinish; first [reflexivity|assumption]|apply path_cancel_task; reflexivity|pobs].
  - (* LDiscWaitDone *)
    destruct (pc (t_disc c)); try discriminate. destruct (finish_fut c); try discriminate; destruct (disc_wait_done c); try discriminate;
      apply (fin _ E); first [apply path_nil | apply path_one, SDiscWaitDone; reflexivity].
  - (* LConnLostCb *)
    destruct (transport c) as [| |e|] eqn:Et; try discriminate.
    set (c1 := c <| transport := TLost |>) in *.
    assert (P1 : spath LConnLostCb c [] c1) by (apply path_one, (STransportLost _ c e); [reflexivity|exact Et]).
    destruct (made c1); apply (fin _ E); [|exact P1].
    eapply path_then; [exact P1|apply cpath_spath, path_helper_error|pobs].
  - (* LTimer *)
    destruct k.
    + (* TkPing *)
      destruct (due (ping_timer c) c) eqn:Ed; [|discriminate].
      set (c0 := c <| ping_timer := None |>) in *.
      assert (P0 : spath (LTimer TkPing) c [] c0) by (apply path_one, SPingTimerNone; [reflexivity|exact Ed]).
      destruct (send_pending_ping c0).
      2: { apply (fin _ E). eapply path_then; [exact P0|apply path_one, SKeepAlive; reflexivity|pobs]. }
      pose proof (path_send_messages c0 [T_PING_REQ]) as P1. apply (cpath_spath (LTimer TkPing)) in P1.
      pose proof (send_messages_none c0 [T_PING_REQ]) as K.
      destruct (send_messages c0 [T_PING_REQ]) as [[c1 o1] ex]. cbn [fst snd] in P1.
      assert (P : spath (LTimer TkPing) c o1 c1) by (eapply path_then; [exact P0|exact P1|pobs]).
      destruct ex; apply (fin _ E); cbn [fst snd]; [eapply path_then; [exact P|apply path_one, SRaise|pobs]|].
      destruct (K c1 o1 eq_refl) as [-> Hh].
      eapply path_then; [exact P| |pobs].
      destruct (pong_timer c0) eqn:Ep; [apply path_one, SKeepAlive; reflexivity|].
      eapply path_atom_then; [apply (SPongArm _ c0 eq_refl Hh Ep)|apply path_one, SKeepAlive; reflexivity|pobs].
    + (* TkPong *)
      destruct (due (pong_timer c) c); [|discriminate]. apply (fin _ E), cpath_spath, path_report_fatal.
    + (* TkHandshake *)
      destruct (due (hs_timer c) c); [|discriminate]. apply (fin _ E). cbn [fst snd].
      destruct (ready c) eqn:Er; try (apply path_one, SHsTimerNone; right; reflexivity).
      eapply path_atom_then; [apply SHsTimerNone; right; reflexivity|apply path_one, SClose, AReady, Er|pobs].
    + (* TkConnect *)
      destruct (due (conn_timer c) c) eqn:Ed; [|discriminate]. apply (fin _ E).
      eapply path_atom_then; [apply SConnExpire; [reflexivity|exact Ed]|apply path_cancel_task; reflexivity|pobs].
    + (* TkCall *)
      destruct (get_call c cid) as [k|] eqn:Ek; [|discriminate]. destruct (due (c_timer k) c) eqn:Ed; [|discriminate].
      apply (fin _ E), path_one. exact (SCallTimeout _ c cid k eq_refl Ek Ed).
    + (* TkDiscWait *)
      destruct (pc (t_disc c)); try discriminate. destruct (due (disc_timer c) c); [|discriminate].
      apply (fin _ E), path_one, SDiscWaitTimeout. reflexivity.
Qed.

Lemma run_cons c l ls c' os : run c (l :: ls) = Some (c', os) ->
  exists c1 o os2, step c l = Some (c1, o) /\ run c1 ls = Some (c', os2) /\ os = o :: os2.
Proof.
  cbn [run]. intro E. destruct (step c l) as [[c1 o]|]; [|discriminate].
  destruct (run c1 ls) as [[c2 os2]|] eqn:Er; [|discriminate]. apply some_pair_inv in E. destruct E as [<- <-].
  exists c1, o, os2. auto.
Qed.

Lemma run_invariant (I : conn -> Prop) : (forall c l c' o, I c -> step c l = Some (c', o) -> I c') ->
  forall ls c c' os, I c -> run c ls = Some (c', os) -> I c'.
Proof.
  intro Hstep. induction ls as [|l ls IH]; intros c c' os H E.
  - apply some_pair_inv in E. destruct E as [<- _]. exact H.
  - destruct (run_cons _ _ _ _ _ E) as (c1 & o & os2 & Es & Er & _).
    exact (IH c1 c' os2 (Hstep c l c1 o H Es) Er).
Qed.
