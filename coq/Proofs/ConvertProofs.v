(* C14.  What the mirror checks of Model/Convert.v establish about a table that passes them; the converters of
   model_conversions.py and from_pb / to_dict / from_dict over them, for any enum tables and any float presentation
   function; and the rounding (C15's whole milliseconds use it too) and the exponent search of Model/FloatFix.v. *)
From Coq Require Import NArith ZArith String List Bool Lia.
From Verif Require Import Model.Schema Model.Convert Model.FloatFix Proofs.ListFacts Proofs.SchemaProofs.
Import ListNotations.
Open Scope string_scope.

(* both mirror checks have this shape *)
Lemma mirror_sound {A B} (eqa : A -> A -> bool) (eqb : B -> B -> bool) keys a b :
  (forall x y, eqa x y = true <-> x = y) -> (forall x y, eqb x y = true <-> x = y) ->
  nodupb eqa keys && forallb (fun x => memb eqb x b) a && forallb (fun x => memb eqb x a) b = true ->
  NoDup keys /\ forall x, In x a <-> In x b.
Proof.
  intros Ha Hb. rewrite <- andb_assoc, andb_true_iff. intros [H1 H2].
  split; [exact (nodupb_NoDup _ Ha _ H1)|exact (same_elements_sound _ Hb _ _ H2)].
Qed.

Theorem enum_mirror_sound me we mv wv :
  enum_mirror_ok (me, we, mv, wv) = true ->
  NoDup (map snd mv) /\ (forall n v, In (n, v) mv <-> In (n, v) wv).
Proof. intro H. apply (mirror_sound _ _ _ _ _ Z.eqb_eq sz_eqb_eq) in H as [H1 H2]. auto. Qed.

Theorem class_mirror_sound pbn mn fs wf :
  class_mirror_ok (pbn, mn, fs, wf) = true ->
  NoDup (map fst fs) /\ (forall n, In n (map fst fs) <-> In n wf).
Proof. exact (mirror_sound _ _ _ _ _ String.eqb_eq String.eqb_eq). Qed.

Section ConvFacts.
  Variable members : string -> list Z.
  Variable ffix : bool -> Z -> Z -> bool * Z * Z.
  Notation conv := (conv members ffix).
  Notation from_pb := (from_pb members ffix).

  Theorem enum_convert_spec e z :
    conv (KEnum e) (VInt z) = if memb Z.eqb z (members e) then VInt z else VNone.
  Proof. reflexivity. Qed.
  Theorem enum_convert_known e z : In z (members e) -> conv (KEnum e) (VInt z) = VInt z.
  Proof. intro H. apply (memb_In _ Z.eqb_eq) in H. rewrite enum_convert_spec, H. reflexivity. Qed.
  Theorem enum_convert_unknown e z : ~ In z (members e) -> conv (KEnum e) (VInt z) = VNone.
  Proof.
    intro H. rewrite <- (memb_In _ Z.eqb_eq), not_true_iff_false in H. rewrite enum_convert_spec, H. reflexivity.
  Qed.

  Theorem enum_convert_list_spec e l : conv (KEnumList e) (VList l) = VList (filter (is_member members e) l).
  Proof. reflexivity. Qed.

  Hypothesis fix_idem : forall s m e, let '(s1, m1, e1) := ffix s m e in ffix s1 m1 e1 = (s1, m1, e1).

  Theorem conv_idem k v : conv k (conv k v) = conv k v.
  Proof.
    destruct k as [|e|e| | |c]; cbn [Convert.conv]; try reflexivity.
    - (* KEnum: a member stays, and None is no member *)
      destruct (is_member members e v) eqn:E; [rewrite E|]; reflexivity.
    - (* KEnumList *) destruct v; try reflexivity. rewrite filter_idem. reflexivity.
    - (* KFloatFix *) destruct v as [| |s m ex| | | | |]; try reflexivity.
      pose proof (fix_idem s m ex) as H. destruct (ffix s m ex) as [[s1 m1] e1]. rewrite H. reflexivity.
  Qed.

  Lemma lookup_In n w : In n (map fst w) -> exists v, lookup n w = Some v.
  Proof.
    induction w as [|[k v] w IH]; cbn; intro H; [contradiction|].
    destruct (String.eqb_spec k n) as [|Hne]; [eauto|]. destruct H as [H|H]; [contradiction|auto].
  Qed.

  Lemma from_pb_cons n k r w m :
    from_pb ((n, k) :: r) w = Some m <->
    exists v rest, lookup n w = Some v /\ from_pb r w = Some rest /\ m = (n, conv k v) :: rest.
  Proof.
    cbn [Convert.from_pb]. destruct (lookup n w) as [v|], (from_pb r w) as [rest|];
      (split; [intros [= <-]; eauto|intros (? & ? & [= <-] & [= <-] & ->); reflexivity]).
  Qed.

  Theorem from_pb_total fields w :
    (forall n, In n (map fst fields) -> In n (map fst w)) ->
    exists m, from_pb fields w = Some m /\ map fst m = map fst fields /\
              forall n k, In (n, k) fields -> exists v, lookup n w = Some v /\ In (n, Convert.conv members ffix k v) m.
  Proof.
    induction fields as [|[n k] r IH]; intro H.
    - exists []. repeat split. intros n k [].
    - destruct (lookup_In n w) as [v Hv]; [apply H; left; reflexivity|].
      destruct IH as (m & Hm & Hn & Hf); [intros n' Hn'; apply H; right; exact Hn'|].
      exists ((n, conv k v) :: m). split; [apply from_pb_cons; eauto|]. split; [cbn; rewrite Hn; reflexivity|].
      intros n' k' [[= <- <-]|Hin].
      + exists v. split; [exact Hv|left; reflexivity].
      + destruct (Hf n' k' Hin) as (v' & Hv' & Hin'). exists v'. split; [exact Hv'|right; exact Hin'].
  Qed.

  Lemma lookup_first n v m : lookup n ((n, v) :: m) = Some v.
  Proof. cbn. rewrite String.eqb_refl. reflexivity. Qed.

  Lemma from_pb_skip n v m : forall r, ~ In n (map fst r) -> from_pb r ((n, v) :: m) = from_pb r m.
  Proof.
    induction r as [|[a ka] r IHr]; intro Hni; [reflexivity|]. cbn in Hni.
    cbn [Convert.from_pb lookup]. destruct (String.eqb_spec n a); [subst; tauto|]. rewrite IHr by tauto. reflexivity.
  Qed.

  (* reading field i back from to_dict m finds entry i, since the earlier entries have other names; its value is already
     converted, and converting again changes nothing *)
  Theorem dict_roundtrip fields w m :
    NoDup (map fst fields) -> from_pb fields w = Some m ->
    from_dict members ffix fields (to_dict m) = Some m.
  Proof.
    unfold from_dict, to_dict. revert m. induction fields as [|[n k] r IH]; intros m Hnd Hm.
    - injection Hm as <-. reflexivity.
    - apply from_pb_cons in Hm as (v & rest & _ & Hr & ->). inversion Hnd as [|? ? Hn Hnd']; subst.
      apply from_pb_cons. exists (conv k v), rest.
      rewrite lookup_first, from_pb_skip, conv_idem by assumption. repeat split. exact (IH rest Hnd' Hr).
  Qed.
End ConvFacts.

Open Scope Z_scope.
Lemma rhe_cases N D :
  rhe N D = N / D /\ 2 * (N mod D) <= D \/ rhe N D = N / D + 1 /\ D <= 2 * (N mod D).
Proof.
  unfold rhe. destruct (Z.ltb_spec (2 * (N mod D)) D); [lia|]. destruct (Z.ltb_spec D (2 * (N mod D))); [lia|].
  destruct (Z.even (N / D)); lia.
Qed.
(* round-half-even of N / D is within half a unit of N / D *)
Theorem rhe_half_unit N D : 0 <= N -> 0 < D -> let r := rhe N D in - D <= 2 * (r * D - N) <= D.
Proof.
  intros HN HD. cbn zeta. pose proof (Z.div_mod N D ltac:(lia)) as E. pose proof (Z.mod_pos_bound N D HD) as B.
  destruct (rhe_cases N D) as [[-> H]|[-> H]]; lia.
Qed.
Theorem rhe_nonneg N D : 0 <= N -> 0 < D -> 0 <= rhe N D.
Proof. intros HN HD. pose proof (Z.div_pos N D HN HD). destruct (rhe_cases N D) as [[-> _]|[-> _]]; lia. Qed.
Theorem fix_zero neg e : fix_float neg 0 e = (neg, 0, 0).
Proof. reflexivity. Qed.
Theorem fix_sign neg m e : fst (fst (fix_float neg m e)) = neg.
Proof.
  unfold fix_float. destruct (m =? 0); [reflexivity|]. cbn zeta. destruct (_ =? 0); [reflexivity|]. destruct (rn64 _ _); reflexivity.
Qed.
Lemma find_l10_first fuel : forall m e k, let r := find_l10 fuel m e k in
  (le_pow10 m e r = true \/ r = k + Z.of_nat fuel) /\ forall j, k <= j < r -> le_pow10 m e j = false.
Proof.
  induction fuel as [|f IH]; intros m e k; cbn [find_l10].
  - split; [right; lia|intros j Hj; lia].
  - destruct (le_pow10 m e k) eqn:E.
    + split; [left; exact E|intros j Hj; lia].
    + specialize (IH m e (k + 1)). cbn zeta in IH. destruct IH as [A B]. split.
      * destruct A as [A|A]; [left; exact A|right; lia].
      * intros j Hj. destruct (Z.eq_dec j k) as [->|Hn]; [exact E|apply B; lia].
Qed.
