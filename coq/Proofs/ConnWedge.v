(* For C19 (the client never wedges).  `WI` says where a transport, an armed keep-alive timer and the state HANDSHAKE_COMPLETE can
   occur.  `step_W`: every label but LForce (the client's own forced close, ClientProofs.step_WI_force) keeps WI, and when it
   closes the connection, a connect coroutine is still in flight or the observations make the client drop its reference (`NC`). *)
From Coq Require Import NArith ZArith List Bool.
From RecordUpdate Require Import RecordSet.
From Verif Require Import Generated.GenConstants Model.Conn Proofs.ConnMoves Proofs.ConnCore Proofs.ConnStep Proofs.ConnStep3.
Import ListNotations RecordSetNotations.
Open Scope Z_scope.
Open Scope list_scope.

(* `wv`: what C19 looks at in a connection *)
Definition wv (c : conn) :=
  (cs c, is_connected c, on_stop_armed c, pc (t_start c), pc (t_finish c), transport c, ping_timer c, pong_timer c, handshake_complete c).

Definition has_stop (o : list obs) : Prop := exists b, In (OStop b) o.

(* `Mv c c' o`: what a function of the connection may do to these fields from c to c', observing o - the connect coroutines stay
   where they are, no transport and no keep-alive timer appears, and the state and its flags stay or the connection closes;
   closing an established connection whose stop callback is armed is observed as OStop. *)
Record Mv (c c' : conn) (o : list obs) : Prop := {
  s_ps : pc (t_start c') = pc (t_start c);
  s_pf : pc (t_finish c') = pc (t_finish c);
  s_tr : transport c = TNone -> transport c' = TNone;
  s_pi : ping_timer c = None -> ping_timer c' = None;
  s_po : pong_timer c = None -> pong_timer c' = None;
  s_cs : (cs c' = cs c /\ is_connected c' = is_connected c /\ on_stop_armed c' = on_stop_armed c /\ handshake_complete c' = handshake_complete c) \/
         (cs c <> Closed /\ cs c' = Closed /\ (is_connected c = true -> on_stop_armed c = true -> has_stop o)) }.

Lemma S_wv c c' o : wv c' = wv c -> Mv c c' o.
Proof.
  unfold wv. intro E. injection E as E1 E2 E3 E4 E5 E6 E7 E8 E9.
  constructor; try congruence. left. auto.
Qed.
Lemma S_refl c o : Mv c c o.
Proof. apply S_wv. reflexivity. Qed.

Lemma has_stop_l a b : has_stop a -> has_stop (a ++ b).
Proof. intros [x H]. exists x. apply in_or_app. auto. Qed.
Lemma has_stop_r a b : has_stop b -> has_stop (a ++ b).
Proof. intros [x H]. exists x. apply in_or_app. auto. Qed.

Lemma S_trans c c1 c2 o1 o2 : Mv c c1 o1 -> Mv c1 c2 o2 -> Mv c c2 (o1 ++ o2).
Proof.
  intros [A1 A2 A3 A4 A5 A6] [B1 B2 B3 B4 B5 B6]. constructor; try congruence; auto.
  destruct A6 as [(Ea & Eb & Ec & Ed)|(Na & Ca & Ha)]; destruct B6 as [(Fa & Fb & Fc & Fd)|(Nb & Cb & Hb)].
  - left. repeat split; congruence.
  - right. repeat split; try congruence. intros H1 H2. apply has_stop_r. apply Hb; congruence.
  - right. repeat split; try congruence. intros H1 H2. apply has_stop_l. auto.
  - contradiction.
Qed.
Lemma S_obs_l c c' o o0 : Mv c c' o -> Mv c c' (o0 ++ o).
Proof. intro H. apply (S_trans c c c' o0 o (S_refl c o0) H). Qed.
Lemma S_obs_r c c' o o2 : Mv c c' o -> Mv c c' (o ++ o2).
Proof. intro H. apply (S_trans c c' c' o o2 H (S_refl c' o2)). Qed.
Lemma S_weaken c c' o : Mv c c' [] -> Mv c c' o.
Proof. intro H. exact (S_obs_r c c' [] o H). Qed.

(* `Mw`: Mv in the form that holds move by move.  _cleanup lowers `is_connected` before it calls the stop callback, so the last
   clause of Mv does not hold of its single moves.  What does hold of every move: the callback is disarmed only by running, and
   `ever_connected` is left alone.  Between two states that satisfy the invariant this gives Mv back (Mw_Mv): an established
   connection has been connected, and a closed one that has been connected is disarmed. *)
Record Mw (c c' : conn) (o : list obs) : Prop := {
  w_ps : pc (t_start c') = pc (t_start c);
  w_pf : pc (t_finish c') = pc (t_finish c);
  w_tr : transport c = TNone -> transport c' = TNone;
  w_pi : ping_timer c = None -> ping_timer c' = None;
  w_po : pong_timer c = None -> pong_timer c' = None;
  w_cs : (cs c' = cs c /\ is_connected c' = is_connected c /\ handshake_complete c' = handshake_complete c) \/
         (cs c <> Closed /\ cs c' = Closed);
  w_ev : ever_connected c' = ever_connected c;
  w_arm : on_stop_armed c' = on_stop_armed c \/ has_stop o }.

(* `xv`: the view for Mw, which reads `ever_connected` as well *)
Definition xv (c : conn) := (wv c, ever_connected c).
Lemma xv_wv c c' : xv c' = xv c -> wv c' = wv c.
Proof. intro E. exact (f_equal fst E). Qed.

Lemma Mw_view c c' o : xv c' = xv c -> Mw c c' o.
Proof.
  unfold xv, wv. intro E. injection E as E1 E2 E3 E4 E5 E6 E7 E8 E9 E10.
  constructor; try congruence; auto.
Qed.
Lemma Mw_refl c o : Mw c c o.
Proof. apply Mw_view. reflexivity. Qed.

Lemma Mw_trans c c1 c2 o1 o2 : Mw c c1 o1 -> Mw c1 c2 o2 -> Mw c c2 (o1 ++ o2).
Proof.
  intros [A1 A2 A3 A4 A5 A6 A7 A8] [B1 B2 B3 B4 B5 B6 B7 B8]. constructor; try congruence; auto.
  - destruct A6 as [(Ea & Eb & Ec)|(Na & Ca)]; destruct B6 as [(Fa & Fb & Fc)|(Nb & Cb)];
      [left; repeat split; congruence|right; split; congruence|right; split; congruence|contradiction].
  - destruct B8 as [Eb|Hb]; [|right; apply has_stop_r, Hb].
    destruct A8 as [Ea|Ha]; [left; congruence|right; apply has_stop_l, Ha].
Qed.
(* the form in which it is used: the observation list given up to an equation (closed by ConnMoves.pobs) *)
Lemma Mw_then c c1 c2 o1 o2 o : Mw c c1 o1 -> Mw c1 c2 o2 -> o = o1 ++ o2 -> Mw c c2 o.
Proof. intros H1 H2 ->. exact (Mw_trans _ _ _ _ _ H1 H2). Qed.

Lemma Mw_path (A : conn -> list obs -> conn -> Prop) :
  (forall c o c', A c o c' -> Mw c c' o) -> forall c o c', path A c o c' -> Mw c c' o.
Proof.
  intro H. apply (path_rel_obs A (fun c o c' => Mw c c' o)); [exact (fun c => Mw_refl c [])| |exact H].
  intros a o1 b o2 d. apply Mw_trans.
Qed.

Lemma Mw_transport c t o : transport c <> TNone -> Mw c (c <| transport := t |>) o.
Proof. intro H. constructor; try reflexivity; auto. intro Q. contradiction. Qed.

Lemma Mw_close c o c' : close_atom c o c' -> Mw c c' o.
Proof.
  destruct 1; try (apply Mw_view; reflexivity).
  - (* ATransportClose *) apply Mw_transport. congruence.
  - (* ATimersNone *) constructor; try reflexivity; auto.
  - (* ACloseState *) constructor; try reflexivity; auto.
  - (* AFire *) constructor; try reflexivity; auto. right. eexists. left. reflexivity.
Qed.
Lemma Mw_send_messages c tys : Mw c (fst (fst (send_messages c tys))) (snd (fst (send_messages c tys))).
Proof. exact (Mw_path _ Mw_close _ _ _ (path_send_messages c tys)). Qed.

Lemma xv_add_handler c ty h : xv (add_handler c ty h) = xv c.
Proof. unfold add_handler. dm; reflexivity. Qed.

Lemma Mw_data c o c' : data_atom c o c' -> Mw c c' o.
Proof.
  destruct 1 as [c o c' H| | |c [ty u|ty u]| |]; try (apply Mw_view; reflexivity).
  - (* DClose *) exact (Mw_close c o c' H).
  - (* DPacket: the pong timer is cancelled *) constructor; try reflexivity; auto.
  - (* DAction, a subscription *) apply Mw_view, xv_add_handler.
Qed.

Lemma wv_upd_call c cid f : wv (upd_call c cid f) = wv c. Proof. reflexivity. Qed.

Lemma xv_fold_add l h : forall c, xv (fold_left (fun a ty => add_handler a ty h) l c) = xv c.
Proof. apply (fold_left_view xv). intros a ty. apply xv_add_handler. Qed.
Lemma xv_fold_remove l h : forall c, xv (fold_left (fun a ty => remove_handler a ty h) l c) = xv c.
Proof. apply (fold_left_view xv). reflexivity. Qed.
Lemma xv_internal_handlers c : xv (internal_handlers c) = xv c.
Proof. unfold internal_handlers. rewrite !xv_add_handler. reflexivity. Qed.

Lemma xv_register_call c owner types ap st tmo : xv (register_call c owner types ap st tmo) = xv c.
Proof. unfold register_call. rewrite xv_fold_add. reflexivity. Qed.

(* also used inside finish_connection, whose label is not plain *)
Lemma Mw_call_begin c owner send types ap st tmo :
  Mw c (fst (fst (fst (call_begin c owner send types ap st tmo)))) (snd (fst (fst (call_begin c owner send types ap st tmo)))).
Proof.
  unfold call_begin. pose proof (Mw_send_messages c send) as H. destruct (send_messages c send) as [[c1 o1] ex]. cbn [fst snd] in H.
  destruct ex; cbn [fst snd]; [exact H|].
  eapply Mw_then; [exact H|apply Mw_view, (xv_register_call c1 owner types ap st tmo)|pobs].
Qed.

Lemma xv_call_finally c cid : xv (call_finally c cid) = xv c.
Proof.
  unfold call_finally. destruct (get_call c cid) as [k|]; [|reflexivity]. cbv zeta.
  match goal with |- xv (?x <| waiters := _ |>) = _ => change (xv x = xv c) end.
  rewrite xv_fold_remove. reflexivity.
Qed.

Lemma xv_set_task c t k : pc k = pc (get_task c t) -> xv (set_task c t k) = xv c.
Proof. destruct t; cbn [set_task get_task]; intro E; unfold xv, wv; cbn [t_start t_finish set]; rewrite ?E; reflexivity. Qed.

Lemma xv_take_cancel c t : xv (fst (take_cancel c t)) = xv c.
Proof. unfold take_cancel. destruct (must_cancel (get_task c t)); [|reflexivity]. apply xv_set_task. reflexivity. Qed.
Lemma xv_timeout_exit c t e : xv (fst (timeout_exit c t e)) = xv c.
Proof.
  unfold timeout_exit. destruct (expiring (get_task c t)); [|reflexivity].
  destruct e; try (destruct (Nat.eqb _ 0)); apply xv_set_task; reflexivity.
Qed.
Lemma wv_interrupt_exit c t e : wv (fst (interrupt_exit c t e)) = wv c.
Proof.
  unfold interrupt_exit. destruct (interrupted (get_task c t)); [|reflexivity]. destruct e; try reflexivity.
  destruct (Nat.eqb _ 0); apply xv_wv, xv_set_task; reflexivity.
Qed.
Lemma xv_cancel_awaited c t k : xv (fst (cancel_awaited c t k)) = xv c.
Proof. unfold cancel_awaited, cancel_efut. repeat dm; reflexivity. Qed.
Lemma xv_cancel_task c t : xv (cancel_task c t) = xv c.
Proof.
  unfold cancel_task. destruct (negb (task_running (get_task c t))); [reflexivity|].
  match goal with |- context [cancel_awaited c t ?k] =>
    pose proof (xv_cancel_awaited c t k) as H; pose proof (get_task_cancel_awaited c t k t) as G; destruct (cancel_awaited c t k) as [c1 d] end.
  cbn [fst] in H, G. rewrite <- H. destruct d; apply xv_set_task; rewrite G; reflexivity.
Qed.

(* `plain`: the labels that run neither connect task nor the ping timer; every move of theirs is in Mw *)
Definition plain (l : label) : Prop :=
  match l with LStart | LFinish _ | LWake TStart | LWake TFinish | LTimer TkPing => False | _ => True end.

Lemma plain_runs l a : plain l -> runs l a -> a <> TStart /\ a <> TFinish.
Proof.
  destruct l; cbn [plain runs]; intros Hp Hr; try contradiction; try (subst a; split; discriminate).
  - (* LCallStart *) destruct Hr as [cid ->]. split; discriminate.
  - (* LWake *) subst a. destruct t; try contradiction; split; discriminate.
Qed.

Lemma Mw_step l c o c' : plain l -> step_atom l c o c' -> Mw c c' o.
Proof.
  intros Hp A. destruct A; try (apply Mw_view; reflexivity);
    (* moves of start_connection, finish_connection and the keep-alive timer are not made under l *)
    try (match goal with H : l = _ |- _ => subst l; exact (False_ind _ Hp) end);
    try (match goal with H : runs l ?t |- _ => destruct (plain_runs l t Hp H) as [N1 N2]; exfalso; first [exact (N1 eq_refl)|exact (N2 eq_refl)] end).
  - (* SClose *) apply Mw_close. assumption.
  - (* SData *) apply Mw_data. assumption.
  - (* SNewCall *) apply Mw_view, xv_register_call.
  - (* SCallFinally *) apply Mw_view, xv_call_finally.
  - (* STaskCancel *) apply Mw_view, xv_set_task. reflexivity.
  - (* STask *)
    apply Mw_view, xv_set_task. apply tmove_pc. assumption.
  - (* STaskDone: not of a connect task *)
    match goal with H : runs l ?t |- _ => destruct (plain_runs l t Hp H) as [N1 N2] end.
    destruct t; try contradiction; apply Mw_view; reflexivity.
  - (* SUserCancel *) apply Mw_view, xv_set_task. reflexivity.
  - (* SSub *) apply Mw_view, xv_add_handler.
  - (* STransportFail *) apply Mw_transport. assumption.
  - (* SLost *) apply Mw_transport. congruence.
  - (* STransportLost *) apply Mw_transport. congruence.
Qed.
Lemma Mw_spath l c o c' : plain l -> spath l c o c' -> Mw c c' o.
Proof. intro Hp. exact (Mw_path _ (fun x ox x' => Mw_step l x ox x' Hp) c o c'). Qed.

(* The invariant `WI`, on top of ConnCore.Inv.
   `SF`: a connect coroutine is in flight - start_connection awaits the resolver or a TCP attempt (`running_s`), finish_connection
   awaits create_connection, the frame helper or the hello answers (`running_f`); the two are ConnKick.phase_running, by task.
   `TK`: there is a transport only while finish_connection runs, in an established connection, or in a closed one.
   `PK`: a keep-alive timer is armed only in an established connection.
   `GK`: the state HANDSHAKE_COMPLETE occurs only inside finish_connection. *)
Definition running_s (p : tpc) : bool := match p with PS_Resolve | PS_Tcp _ => true | _ => false end.
Definition running_f (p : tpc) : bool := match p with PF_Create | PF_Ready | PF_Hello _ => true | _ => false end.
Definition SF (c : conn) : bool := running_s (pc (t_start c)) || running_f (pc (t_finish c)).

Definition TK (c : conn) : Prop := transport c = TNone \/ running_f (pc (t_finish c)) = true \/ cs c = Connected \/ cs c = Closed.
Definition PK (c : conn) : Prop := (ping_timer c <> None \/ pong_timer c <> None) -> cs c = Connected.
Definition GK (c : conn) : Prop := cs c = HsDone -> running_f (pc (t_finish c)) = true.
Definition WI (c : conn) : Prop := Inv c /\ TK c /\ PK c /\ GK c.

(* observations that make the client drop its reference (Model/Client.v: clears) *)
Definition Clr (o : list obs) : Prop :=
  has_stop o \/ (exists e, In (OTaskDone TStart (TRaise e)) o) \/ (exists e, In (OTaskDone TFinish (TRaise e)) o) \/ In (OTaskDone TDisc TOk) o.

Lemma Inv_conn_flag c : Inv c -> is_connected c = (match cs c with Connected => true | _ => false end) /\
                                 handshake_complete c = (match cs c with HsDone | Connected => true | _ => false end).
Proof. intros (F & _). exact F. Qed.
Lemma Inv_disarmed c : Inv c -> (on_stop_armed c = false <-> cs c = Closed /\ ever_connected c = true).
Proof.
  intros (_ & _ & (_ & S2 & _ & _ & S5) & _). cbn in S2, S5. split.
  - intro E. destruct (S2 E) as (A & B & _). auto.
  - intros [A B]. auto.
Qed.
Lemma Inv_armed_open c : Inv c -> cs c <> Closed -> on_stop_armed c = true.
Proof.
  intros (_ & _ & S & _). exact (StopK_open (core_of c) S).
Qed.
Lemma Inv_connected_ever c : Inv c -> is_connected c = true -> ever_connected c = true.
Proof.
  intros I Hc. destruct (Inv_conn_flag c I) as [F1 _]. destruct I as (_ & _ & (_ & _ & _ & S4 & _) & _). cbn in S4.
  apply S4. rewrite Hc in F1. destruct (cs c); try discriminate. reflexivity.
Qed.
Lemma Inv_closed_timers c : Inv c -> cs c = Closed -> ping_timer c = None /\ pong_timer c = None.
Proof. intros (_ & _ & _ & C) Hc. destruct (C Hc) as (A & B & _). exact (conj A B). Qed.

Lemma Mw_Mv c c' o : Inv c -> Inv c' -> Mw c c' o -> Mv c c' o.
Proof.
  intros I I' [A1 A2 A3 A4 A5 A6 A7 A8]. constructor; auto.
  pose proof (Inv_disarmed c I) as D. pose proof (Inv_disarmed c' I') as D'.
  destruct A6 as [(E1 & E2 & E3)|(Hn & Hc)].
  - left. repeat split; auto. rewrite E1, A7 in D'.
    destruct (on_stop_armed c'), (on_stop_armed c); try reflexivity; [apply D', D|symmetry; apply D, D']; reflexivity.
  - right. repeat split; auto. intros Hc1 Ha.
    destruct A8 as [E|E]; [|exact E]. exfalso.
    assert (Hd : on_stop_armed c' = false) by (apply D'; rewrite A7; auto using Inv_connected_ever).
    congruence.
Qed.

Lemma PK_not_connected c : PK c -> cs c <> Connected -> ping_timer c = None /\ pong_timer c = None.
Proof.
  intros P Hd. unfold PK in P. split; [destruct (ping_timer c) eqn:Q|destruct (pong_timer c) eqn:Q]; try reflexivity;
    exfalso; apply Hd; apply P; [left|right]; congruence.
Qed.

(* `eqv x c'`: c' has the fields of x that TK, PK and GK read *)
Definition eqv (x c' : conn) : Prop :=
  cs c' = cs x /\ transport c' = transport x /\ pc (t_finish c') = pc (t_finish x) /\ ping_timer c' = ping_timer x /\ pong_timer c' = pong_timer x.
Lemma eqv_refl x : eqv x x. Proof. repeat split. Qed.

Lemma S_eqv_WI c x c' o : WI c -> Mv c x o -> eqv x c' -> Inv c' -> WI c'.
Proof.
  intros (I & T & P & G) [A1 A2 A3 A4 A5 A6] (E1 & E2 & E3 & E4 & E5) I'. split; [exact I'|]. split; [|split].
  - unfold TK in *. rewrite E1, E2, E3, A2. destruct T as [T|[T|[T|T]]]; auto.
    + destruct A6 as [(E & _)|(_ & E & _)]; [right; right; left; congruence|auto].
    + destruct A6 as [(E & _)|(N & _)]; [right; right; right; congruence|contradiction].
  - unfold PK in *. rewrite E4, E5, E1. intro H.
    assert (H0 : ping_timer c <> None \/ pong_timer c <> None).
    { destruct H as [H|H]; [left; intro Q; apply H; auto|right; intro Q; apply H; auto]. }
    specialize (P H0). destruct A6 as [(E & _)|(_ & E & _)]; [congruence|].
    assert (Ec : cs c' = Closed) by congruence.
    destruct (Inv_closed_timers c' I' Ec) as [Q1 Q2]. rewrite E4 in Q1. rewrite E5 in Q2. destruct H; contradiction.
  - unfold GK in *. rewrite E1, E3. intro H. rewrite A2. apply G. destruct A6 as [(E & _)|(_ & E & _)]; congruence.
Qed.
Lemma S_WI c c' o : WI c -> Inv c' -> Mv c c' o -> WI c'.
Proof. intros W I' H. exact (S_eqv_WI c c' c' o W H (eqv_refl c') I'). Qed.
Lemma frame_WI c c' : WI c -> Inv c' -> eqv c c' -> WI c'.
Proof. intros W I' E. exact (S_eqv_WI c c c' [] W (S_refl c []) E I'). Qed.

Lemma S_NC c c' o : WI c -> Mv c c' o -> cs c' = Closed -> (cs c <> Closed \/ SF c = true) ->
  SF c' = true \/ has_stop o \/
  ((cs c = Init \/ cs c = SockOpen) /\ transport c = TNone /\ ping_timer c = None /\ pong_timer c = None /\ handshake_complete c = false).
Proof.
  intros (I & T & P & G) [A1 A2 A3 A4 A5 A6] Hc Hpre.
  assert (Esf : SF c' = SF c) by (unfold SF; rewrite A1, A2; reflexivity).
  destruct (SF c) eqn:Es; [left; exact Esf|]. destruct Hpre as [Hn|Hn]; [|discriminate].
  destruct A6 as [(E & _)|(_ & _ & Hs)]; [congruence|].
  destruct (Inv_conn_flag c I) as [F1 F2]. pose proof (Inv_armed_open c I Hn) as Ha.
  pose proof (PK_not_connected c P) as Hti.
  unfold SF in Es. apply orb_false_iff in Es. destruct Es as [_ Ef].
  destruct (cs c) eqn:Ecs; try contradiction.
  - (* Init: no transport (TK), no timers (PK) *)
    right. right. destruct T as [T|[T|[T|T]]]; try congruence. destruct Hti as [Q1 Q2]; [discriminate|]. auto 6.
  - (* SockOpen *)
    right. right. destruct T as [T|[T|[T|T]]]; try congruence. destruct Hti as [Q1 Q2]; [discriminate|]. auto 6.
  - (* HsDone: finish_connection would be running (GK) *) exfalso. specialize (G Ecs). congruence.
  - (* Connected *) right. left. apply Hs; [exact F1|exact Ha].
Qed.

(* `NC c c' o`: if c' is closed, and c was open or had a connect coroutine in flight, then c' still has one in flight or o makes
   the client drop the connection *)
Definition NC (c c' : conn) (o : list obs) : Prop :=
  cs c' = Closed -> (cs c <> Closed \/ SF c = true) -> SF c' = true \/ Clr o.

Lemma NC_same c c' o : cs c' = cs c -> (SF c = true -> SF c' = true) -> NC c c' o.
Proof. intros E H Hc [Hn|Hs]; [congruence|left; auto]. Qed.
Lemma NC_open c c' o : cs c' <> Closed -> NC c c' o.
Proof. intros H Hc. contradiction. Qed.
Lemma NC_clr c c' o : Clr o -> NC c c' o.
Proof. intros H _ _. right. exact H. Qed.

Lemma Clr_stop o : has_stop o -> Clr o. Proof. intro H. left. exact H. Qed.
Lemma Clr_start o : (exists e, In (OTaskDone TStart (TRaise e)) o) -> Clr o. Proof. intro H. right. left. exact H. Qed.
Lemma Clr_finish o : (exists e, In (OTaskDone TFinish (TRaise e)) o) -> Clr o. Proof. intro H. right. right. left. exact H. Qed.

(* an Mv-move; when it closes the connection, its enabling condition rules out the last case of S_NC *)
Lemma S_step c c' o : WI c -> Inv c' -> Mv c c' o ->
  (cs c <> Closed -> cs c' = Closed ->
   transport c <> TNone \/ ping_timer c <> None \/ pong_timer c <> None \/ handshake_complete c = true \/ In (OTaskDone TDisc TOk) o) ->
  WI c' /\ NC c c' o.
Proof.
  intros W I' HS En. split; [exact (S_WI c c' o W I' HS)|].
  intros Hc Hpre.
  destruct (S_NC c c' o W HS Hc Hpre) as [H|[H|(Hi & Q1 & Q2 & Q3 & Q4)]]; [left; exact H|right; apply Clr_stop, H|].
  assert (Hn : cs c <> Closed) by (destruct Hi as [Q|Q]; rewrite Q; discriminate).
  destruct (En Hn Hc) as [E|[E|[E|[E|E]]]]; try contradiction; try congruence.
  right. right. right. right. exact E.
Qed.
Lemma wv_fields x c : wv x = wv c ->
  cs x = cs c /\ transport x = transport c /\ ping_timer x = ping_timer c /\ pong_timer x = pong_timer c /\ pc (t_finish x) = pc (t_finish c) /\ pc (t_start x) = pc (t_start c).
Proof. unfold wv. intro E. injection E as E1 E2 E3 E4 E5 E6 E7 E8 E9. auto 7. Qed.
Lemma wv_eqv x c : wv x = wv c -> eqv c x.
Proof. intro E. destruct (wv_fields x c E) as (E1 & E2 & E3 & E4 & E5 & _). unfold eqv. auto. Qed.

Lemma wv_step c c' o : WI c -> Inv c' -> wv c' = wv c -> WI c' /\ NC c c' o.
Proof.
  intros W I' E. destruct (wv_fields c' c E) as (F1 & F2 & F3 & F4 & F5 & F6). split.
  - exact (frame_WI c c' W I' (wv_eqv c' c E)).
  - apply NC_same; [exact F1|]. unfold SF. rewrite F5, F6. auto.
Qed.

Lemma send_nohs c tys : handshake_complete c = false -> send_messages c tys = (c, [], Some (Lib LNotEstablished)).
Proof. intro H. unfold send_messages. rewrite H. reflexivity. Qed.

(* The labels that run start_connection or finish_connection are followed function by function.  Their moves take the two
   coroutines from one program point to the next, which Mw rules out, and what such a step does to TK, GK and NC depends on
   where it leads: the coroutine goes on waiting (SF stays), succeeds (the state advances with it) or fails (after _cleanup,
   with an error: ConnMoves.ends_closed).  Which of the three happens is read off the function that is run, not off its single
   moves: nothing in a path says that the move of success is its last, so that no close follows it. *)
Lemma JK_start_running c : Inv c -> running_s (pc (t_start c)) = true -> cs c = Init \/ cs c = Closed.
Proof. intros (_ & (J1 & _) & _) H. cbn in J1. destruct (pc (t_start c)); try discriminate; exact J1. Qed.
Lemma JK_finish_running c : Inv c -> running_f (pc (t_finish c)) = true -> cs c = SockOpen \/ cs c = HsDone \/ cs c = Closed.
Proof. intros (_ & (_ & J2) & _) H. cbn in J2. destruct (pc (t_finish c)); try discriminate; tauto. Qed.

Lemma WI_closed c : Inv c -> cs c = Closed -> WI c.
Proof.
  intros I Hc. split; [exact I|]. split; [|split].
  - right. right. right. exact Hc.
  - intro H. destruct (Inv_closed_timers c I Hc) as [Q1 Q2]. destruct H; contradiction.
  - intro H. congruence.
Qed.
Lemma WI_connected c : Inv c -> cs c = Connected -> WI c.
Proof.
  intros I Hc. split; [exact I|]. split; [|split].
  - right. right. left. exact Hc.
  - intros _. exact Hc.
  - intro H. congruence.
Qed.
Lemma WI_running c : Inv c -> running_f (pc (t_finish c)) = true -> ping_timer c = None -> pong_timer c = None -> WI c.
Proof.
  intros I Hr Q1 Q2. split; [exact I|]. split; [|split].
  - right. left. exact Hr.
  - intros [Q|Q]; contradiction.
  - intros _. exact Hr.
Qed.
Lemma running_no_timers c : WI c -> running_f (pc (t_finish c)) = true -> ping_timer c = None /\ pong_timer c = None.
Proof.
  intros (I & _ & P & _) Hr. apply (PK_not_connected c P). destruct (JK_finish_running c I Hr) as [Q|[Q|Q]]; congruence.
Qed.

(* a function that ends in _cleanup and then raises from its task leaves the connection closed and reports the failed task;
   `post` is the resolution of the task's future *)
Lemma cleanup_raise x t (post : conn -> conn) (mk : conn -> exc) : (forall y, cs (post y) = cs y) ->
  let r := (let '(c2, o) := cleanup x in let '(c4, o2) := finish_task (post c2) t (TRaise (mk c2)) in (c4, o ++ o2)) in
  cs (fst r) = Closed /\ exists e, In (OTaskDone t (TRaise e)) (snd r).
Proof.
  intros Hp r. subst r. pose proof (cs_cleanup x) as Hc. destruct (cleanup x) as [c2 o]. cbn [fst] in Hc. unfold finish_task. cbn [fst snd]. split.
  - transitivity (cs (post c2)); [destruct t; reflexivity|]. rewrite Hp. exact Hc.
  - eexists. apply in_or_app. right. left. reflexivity.
Qed.
Lemma cs_set_finish_future x : cs (set_finish_future x) = cs x.
Proof. exact (ConnMoves.cs_set_finish_future x). Qed.
Lemma start_fail_raises c e : cs (fst (start_fail c e)) = Closed /\ exists e', In (OTaskDone TStart (TRaise e')) (snd (start_fail c e)).
Proof.
  unfold start_fail. destruct (interrupt_exit c TStart e) as [c0 e1]. cbv zeta.
  exact (cleanup_raise _ TStart set_start_future (fun y => wrap_fatal y e1) cs_set_start_future).
Qed.
Lemma finish_fail_raises c e : cs (fst (finish_fail c e)) = Closed /\ exists e', In (OTaskDone TFinish (TRaise e')) (snd (finish_fail c e)).
Proof.
  unfold finish_fail. destruct (interrupt_exit c TFinish e) as [c0 e1]. cbv zeta.
  exact (cleanup_raise _ TFinish set_finish_future (fun y => wrap_fatal y e1) cs_set_finish_future).
Qed.

Lemma leaf_closed c c' o : Inv c' -> cs c' = Closed -> Clr o -> WI c' /\ NC c c' o.
Proof. intros I' Hc Ho. split; [apply WI_closed; assumption|apply NC_clr, Ho]. Qed.

Lemma leaf_connected c c' o : Inv c' -> cs c' = Connected -> WI c' /\ NC c c' o.
Proof. intros I' Hc. split; [apply WI_connected; assumption|apply NC_open; congruence]. Qed.

Lemma leaf_start_fail c x e c' o : start_fail x e = (c', o) -> Inv c' -> WI c' /\ NC c c' o.
Proof.
  intros E I'. pose proof (start_fail_raises x e) as K. rewrite E in K. destruct K as [Hc Ho].
  exact (leaf_closed c c' o I' Hc (Clr_start o Ho)).
Qed.
(* `pre`: what the label observed before the phase failed *)
Lemma leaf_finish_fail c x e c' o0 pre : finish_fail x e = (c', o0) -> Inv c' -> WI c' /\ NC c c' (pre ++ o0).
Proof.
  intros E I'. pose proof (finish_fail_raises x e) as K. rewrite E in K. destruct K as [Hc [e' Ho]].
  apply (leaf_closed c c' _ I' Hc), Clr_finish. exists e'. apply in_or_app. right. exact Ho.
Qed.

Lemma surjective_pairing_eq {A B} (p : A * B) a b : (a, b) = p -> p = (a, b).
Proof. intro H. symmetry. exact H. Qed.

Lemma leaf_tcp c x g c' : WI c -> wv x = wv c -> Inv c' -> c' = start_tcp_attempt x g -> WI c' /\ NC c c' [].
Proof.
  intros W E I' ->. pose proof (wv_eqv x c E) as (E1 & E2 & E3 & E4 & E5). split.
  - apply (frame_WI c); [exact W|exact I'|]. unfold eqv, start_tcp_attempt. cbn. auto.
  - apply NC_same; [unfold start_tcp_attempt; cbn; exact E1|]. intros _. unfold SF, start_tcp_attempt. cbn. reflexivity.
Qed.

Definition fld (c : conn) := (cs c, transport c, pc (t_finish c), ping_timer c, pong_timer c).
Lemma WI_open c' s tr pf pi po : Inv c' -> fld c' = (s, tr, pf, pi, po) ->
  (tr = TNone \/ running_f pf = true \/ s = Connected \/ s = Closed) -> ((pi <> None \/ po <> None) -> s = Connected) -> (s = HsDone -> running_f pf = true) -> WI c'.
Proof.
  unfold fld. intros I' E HT HP HG. injection E as E1 E2 E3 E4 E5. split; [exact I'|]. unfold TK, PK, GK. rewrite E1, E2, E3, E4, E5. auto.
Qed.

Lemma start_success_cases x :
  (cs (fst (start_success x)) = Closed /\ exists e, In (OTaskDone TStart (TRaise e)) (snd (start_success x))) \/
  (cs x <> Closed /\ fld (fst (start_success x)) = (SockOpen, transport x, pc (t_finish x), ping_timer x, pong_timer x)).
Proof.
  unfold start_success. set (c1 := x <| socket := true |> <| sock_obj := false |> <| intr_start := IExited |> <| conn_timer := None |>).
  assert (Ecs : cs (set_start_future c1) = cs x) by (rewrite cs_set_start_future; reflexivity).
  destruct (closed_or_open (cs (set_start_future c1))) as [Ec|Ec].
  - (* closed meanwhile: _cleanup, and the task raises *)
    rewrite when_closed by exact Ec.
    left. exact (cleanup_raise _ TStart (fun y => y) (fun y => wrap_fatal y Interrupted) (fun y => eq_refl)).
  - (* the state advances to SOCKET_OPENED *)
    rewrite when_open by exact Ec.
    right. split; [rewrite <- Ecs; exact Ec|]. unfold finish_task. cbn [fst]. unfold set_start_future. destruct (start_fut c1); reflexivity.
Qed.

Lemma leaf_start_success c x c' o : WI c -> running_s (pc (t_start c)) = true -> wv x = wv c ->
  start_success x = (c', o) -> Inv c' -> WI c' /\ NC c c' o.
Proof.
  intros W Hr E Es I'. destruct W as (I & T & P & G).
  pose proof (wv_eqv x c E) as (E1 & E2 & E3 & E4 & E5).
  pose proof (start_success_cases x) as K. rewrite Es in K. cbn [fst snd] in K. destruct K as [(Hc & Ho)|(Hn & Hf)].
  - exact (leaf_closed c c' o I' Hc (Clr_start o Ho)).
  - assert (Hinit : cs c = Init) by (destruct (JK_start_running c I Hr) as [Q|Q]; [exact Q|congruence]).
    destruct (PK_not_connected c P ltac:(congruence)) as [Q1 Q2].
    assert (Hcs' : cs c' = SockOpen) by (unfold fld in Hf; injection Hf as F1 _ _ _ _; exact F1).
    split; [|apply NC_open; congruence].
    apply (WI_open c' _ _ _ _ _ I' Hf).
    + unfold TK in T. rewrite Hinit in T. destruct T as [T|[T|[T|T]]]; try discriminate; [left; congruence|right; left; congruence].
    + intros [Q|Q]; exfalso; apply Q; congruence.
    + discriminate.
Qed.

Lemma wake_start_W c c' o : WI c -> wake_start c = Some (c', o) -> Inv c' -> WI c' /\ NC c c' o.
Proof.
  intros W E I'. unfold wake_start in E. cbn [get_task] in E.
  pose proof (xv_wv _ _ (xv_take_cancel c TStart)) as H1. destruct (take_cancel c TStart) as [c1 mc]. cbn [fst] in H1.
  destruct (pc (t_start c)) eqn:Ep; try discriminate.
  - (* PS_Resolve *)
    destruct (must_cancel (t_start c) || negb match do_connect c with EPending => true | _ => false end); [|discriminate].
    match type of E with match ?d with _ => _ end = _ => destruct d as [|e] end.
    + apply some_pair_inv in E. destruct E as [<- <-]. eapply leaf_tcp; [exact W| |exact I'|reflexivity]. rewrite <- H1. reflexivity.
    + destruct (timeout_exit (c1 <| conn_timer := None |>) TStart e) as [c2 e1].
      apply some_inj in E. eapply leaf_start_fail; [exact E|exact I'].
  - (* PS_Tcp *)
    destruct (must_cancel (t_start c) || negb match do_connect c with EPending => true | _ => false end); [|discriminate].
    assert (Hr : running_s (pc (t_start c)) = true) by (rewrite Ep; reflexivity).
    match type of E with match ?d with _ => _ end = _ => destruct d as [|e] end.
    + apply some_inj in E. eapply leaf_start_success; [exact W|exact Hr| |exact E|exact I'].
      rewrite <- H1. reflexivity.
    + pose proof (xv_wv _ _ (xv_timeout_exit (c1 <| conn_timer := None |>) TStart e)) as H2.
      destruct (timeout_exit (c1 <| conn_timer := None |>) TStart e) as [c2 e1]. cbn [fst] in H2.
      destruct (is_oserror e1); [match type of Ep with _ = PS_Tcp ?g => destruct g as [|[|g']] end|]; try (apply some_inj in E; eapply leaf_start_fail; [exact E|exact I']).
      (* the next address *)
      apply some_pair_inv in E. destruct E as [<- <-]. eapply leaf_tcp; [exact W| |exact I'|reflexivity]. rewrite H2, <- H1. reflexivity.
Qed.

Lemma finish_success_cases x :
  (cs (fst (finish_success x)) = Closed /\ exists e, In (OTaskDone TFinish (TRaise e)) (snd (finish_success x))) \/
  cs (fst (finish_success x)) = Connected.
Proof.
  unfold finish_success. set (c1 := x <| intr_finish := IExited |>).
  destruct (closed_or_open (cs (set_finish_future c1))) as [Ec|Ec].
  - (* closed meanwhile: _cleanup, and the task raises *)
    rewrite when_closed by exact Ec.
    left. exact (cleanup_raise _ TFinish (fun y => y) (fun y => wrap_fatal y Interrupted) (fun y => eq_refl)).
  - (* the state advances to CONNECTED *)
    rewrite when_open by exact Ec. right. reflexivity.
Qed.

Lemma leaf_finish_success c x c' o : finish_success x = (c', o) -> Inv c' -> WI c' /\ NC c c' o.
Proof.
  intros Es I'. pose proof (finish_success_cases x) as K. rewrite Es in K. cbn [fst snd] in K. destruct K as [(Hc & Ho)|Hc].
  - exact (leaf_closed c c' o I' Hc (Clr_finish o Ho)).
  - exact (leaf_connected c c' o I' Hc).
Qed.

(* the hello (and login) request of finish_connection *)
Lemma hello_cases y send types ap st tmo :
  let r := (let '(c2, o, ex, cid) := call_begin y TFinish send types ap st tmo in
            match ex with Some e => let '(c3, o3) := finish_fail c2 e in (c3, o ++ o3) | None => (c2, o) end) in
  (cs (fst r) = Closed /\ exists e, In (OTaskDone TFinish (TRaise e)) (snd r)) \/ Mw y (fst r) (snd r).
Proof.
  pose proof (Mw_call_begin y TFinish send types ap st tmo) as HS. destruct (call_begin y TFinish send types ap st tmo) as [[[c2 o2] ex] cid].
  cbn [fst snd] in HS. destruct ex as [e|]; [left|right; exact HS].
  pose proof (finish_fail_raises c2 e) as [Hc [e' Ho]]. destruct (finish_fail c2 e) as [c3 o3].
  cbn [fst snd] in *. split; [exact Hc|]. exists e'. apply in_or_app. right. exact Ho.
Qed.

Lemma finish_after_ready_cases x :
  (cs (fst (finish_after_ready x)) = Closed /\ exists e, In (OTaskDone TFinish (TRaise e)) (snd (finish_after_ready x))) \/
  (running_f (pc (t_finish (fst (finish_after_ready x)))) = true /\
   (ping_timer x = None -> ping_timer (fst (finish_after_ready x)) = None) /\ (pong_timer x = None -> pong_timer (fst (finish_after_ready x)) = None)).
Proof.
  unfold finish_after_ready. set (c0 := x <| hs_timer := None |>).
  destruct (closed_or_open (cs c0)) as [Ec|Ec].
  - (* the closed check fails *) rewrite when_closed by exact Ec. left. apply finish_fail_raises.
  - (* otherwise: HANDSHAKE_COMPLETE, the internal handlers, the hello *)
    rewrite when_open by exact Ec.
    match goal with |- context [call_begin (internal_handlers ?y) _ ?s ?t ?a ?b ?d] =>
      destruct (hello_cases (internal_handlers y) s t a b d) as [K|[_ A2 _ A4 A5 _ _ _]]; [left; exact K|right];
      destruct (wv_fields _ _ (xv_wv _ _ (xv_internal_handlers y))) as (_ & _ & F3 & F4 & F5 & _) end.
    split; [rewrite A2, F5; reflexivity|split; intro Q; [apply A4; rewrite F3|apply A5; rewrite F4]; exact Q].
Qed.

Lemma leaf_finish_after_ready c x c' o :
  ping_timer x = None -> pong_timer x = None -> finish_after_ready x = (c', o) -> Inv c' -> WI c' /\ NC c c' o.
Proof.
  intros Q1 Q2 Es I'. pose proof (finish_after_ready_cases x) as K. rewrite Es in K. cbn [fst snd] in K.
  destruct K as [(Hc & Ho)|(Hr & Hp1 & Hp2)].
  - exact (leaf_closed c c' o I' Hc (Clr_finish o Ho)).
  - split; [apply WI_running; auto|]. intros _ _. left. unfold SF. rewrite Hr. apply orb_true_r.
Qed.

(* while finish_connection awaits, no keep-alive timer is armed; taking the pending cancel leaves that and the state as they are *)
Lemma take_cancel_running c : WI c -> running_f (pc (t_finish c)) = true ->
  cs (fst (take_cancel c TFinish)) = cs c /\ ping_timer (fst (take_cancel c TFinish)) = None /\ pong_timer (fst (take_cancel c TFinish)) = None.
Proof.
  intros W Hr. destruct (wv_fields _ _ (xv_wv _ _ (xv_take_cancel c TFinish))) as (F1 & _ & F3 & F4 & _).
  destruct (running_no_timers c W Hr) as [Q1 Q2]. rewrite F1, F3, F4. auto.
Qed.

Lemma wake_finish_W c c' o : WI c -> wake_finish c = Some (c', o) -> Inv c' -> WI c' /\ NC c c' o.
Proof.
  intros W E I'. unfold wake_finish in E. cbn [get_task] in E.
  (* whatever else happens, a failing phase ends in finish_fail *)
  assert (fail : forall x e, Some (finish_fail x e) = Some (c', o) -> WI c' /\ NC c c' o).
  { intros x e E0. apply some_inj in E0. exact (leaf_finish_fail c x e c' o [] E0 I'). }
  destruct (pc (t_finish c)) eqn:Ep; try discriminate.
  - (* PF_Create *)
    destruct (must_cancel (t_finish c) || negb match made_waiter c with EPending => true | _ => false end); [|discriminate].
    destruct (take_cancel_running c W) as (F1 & Q1 & Q2); [rewrite Ep; reflexivity|].
    destruct (take_cancel c TFinish) as [c1 mc]. cbn [fst] in F1, Q1, Q2.
    match type of E with match ?d with _ => _ end = _ => destruct d as [|e] end.
    + set (c2 := c1 <| helper := helper_obj c1 |> <| hs_timer := Some (now c1 + HANDSHAKE_TIMEOUT) |>) in *.
      destruct (ready c2) eqn:Er; try exact (fail _ _ E).
      * (* RPending: now awaiting the helper *)
        apply some_pair_inv in E. destruct E as [<- <-]. split.
        -- apply WI_running; [exact I'|reflexivity|exact Q1|exact Q2].
        -- apply NC_same; [exact F1|]. intros _. apply orb_true_r.
      * (* ROk *)
        destruct (finish_after_ready c2) as [c3 o3] eqn:Ef. apply some_pair_inv in E. destruct E as [<- <-].
        exact (leaf_finish_after_ready c c2 c3 o3 Q1 Q2 Ef I').
    + match type of E with context [finish_fail ?x e] => destruct (finish_fail x e) as [c3 o3] eqn:Ef end.
      apply some_pair_inv in E. destruct E as [<- <-]. eapply leaf_finish_fail; [exact Ef|exact I'].
  - (* PF_Ready *)
    destruct (must_cancel (t_finish c) || negb match ready c with RPending => true | _ => false end); [|discriminate].
    destruct (take_cancel_running c W) as (F1 & Q1 & Q2); [rewrite Ep; reflexivity|].
    destruct (take_cancel c TFinish) as [c1 mc]. cbn [fst] in F1, Q1, Q2.
    destruct mc; [|destruct (ready c1)]; try exact (fail _ _ E).
    destruct (finish_after_ready c1) as [c3 o3] eqn:Ef. apply some_pair_inv in E. destruct E as [<- <-].
    exact (leaf_finish_after_ready c c1 c3 o3 Q1 Q2 Ef I').
  - (* PF_Hello *)
    destruct (get_call c _) as [kk|]; [|discriminate].
    destruct (must_cancel (t_finish c) || cfut_done (c_fut kk)); [|discriminate].
    destruct (take_cancel c TFinish) as [c1 mc].
    match type of E with match ?d with _ => _ end = _ => destruct d as [|e] end; [destruct (check_hello_login _ _)|]; try exact (fail _ _ E).
    apply some_inj in E. exact (leaf_finish_success c _ c' o E I').
Qed.

Lemma wv_set_task_disc c k : wv (set_task c TDisc k) = wv c. Proof. reflexivity. Qed.
Lemma wv_finish_task_disc c r : wv (fst (finish_task c TDisc r)) = wv c. Proof. reflexivity. Qed.
Lemma wv_set_task_call c cid k : wv (set_task c (TCall cid) k) = wv c. Proof. reflexivity. Qed.

(* without a completed handshake disconnect() closes and returns at once *)
Lemma daw_returns c : handshake_complete c = false -> In (OTaskDone TDisc TOk) (snd (disconnect_after_wait c)).
Proof.
  intro H. unfold disconnect_after_wait. change (handshake_complete (c <| expected_disconnect := true |>)) with (handshake_complete c).
  rewrite H. destruct (cleanup _) as [c2 o2]. cbn [finish_task snd]. apply in_or_app. right. left. reflexivity.
Qed.

Lemma wake_disc_closes c c' o : wake_disc c = Some (c', o) -> cs c <> Closed -> cs c' = Closed ->
  handshake_complete c = true \/ In (OTaskDone TDisc TOk) o.
Proof.
  unfold wake_disc. cbn [get_task]. intros E Hn Hc.
  (* the task ends with an exception: the state is not touched *)
  assert (Kraise : forall x e, xv x = xv c -> Some (finish_task x TDisc (TRaise e)) = Some (c', o) -> False).
  { intros x e Ex E0. apply some_pair_inv in E0. destruct E0 as [<- _]. apply Hn. rewrite <- Hc. symmetry.
    exact (proj1 (wv_fields _ _ (xv_wv _ _ Ex))). }
  destruct (pc (t_disc c)); try discriminate.
  - (* PD_Wait *)
    destruct (_ || _); [|discriminate].
    pose proof (xv_take_cancel c TDisc) as H1. destruct (take_cancel c TDisc) as [c1 mc]. cbn [fst] in H1.
    set (c2 := c1 <| disc_timer := None |>) in *.
    assert (H2 : xv c2 = xv c) by (rewrite <- H1; reflexivity).
    destruct mc; [destruct (Kraise _ _ H2 E)|].
    destruct (handshake_complete c) eqn:Eh; [left; reflexivity|right].
    assert (Eh2 : handshake_complete c2 = false) by (rewrite <- Eh; exact (f_equal (fun v => snd (fst v)) H2)).
    apply some_inj in E. match type of E with disconnect_after_wait ?x = _ => pose proof (daw_returns x) as HT end.
    rewrite E in HT. apply HT. destruct (finish_fut c2); [|destruct (fatal c2)|]; exact Eh2.
  - (* PD_Resp *)
    destruct (get_call c _) as [kk|]; [|discriminate].
    destruct (_ || _); [|discriminate].
    pose proof (xv_take_cancel c TDisc) as H1. destruct (take_cancel c TDisc) as [c1 mc]. cbn [fst] in H1.
    set (c2 := call_finally c1 _) in *.
    assert (H3 : xv c2 = xv c) by (rewrite <- H1; apply xv_call_finally).
    destruct mc; [destruct (Kraise _ _ H3 E)|].
    destruct (deliver_cfut (c_fut kk)) as [|[]]; try destruct (Kraise _ _ H3 E);
      destruct (cleanup c2) as [c3 o3]; unfold finish_task in E; apply some_pair_inv in E; destruct E as [_ <-];
      right; apply in_or_app; right; left; reflexivity.
Qed.

Theorem step_W c l c' o : WI c -> step c l = Some (c', o) -> l <> LForce -> WI c' /\ NC c c' o.
Proof.
  intros W E Hl. pose proof W as (I & T & P & G).
  destruct (step_ok c l c' o E I) as [I' _].
  (* `same`: the label's result has the view of c.
     `sync`: a plain label moves by Mw; what is left to show of it is its enabling condition (`en`): when it closes the connection,
     something of a session existed.  That is a fact about the label as a whole (where in it _cleanup is called, and what is
     observed afterwards), not about its single moves. *)
  assert (same : forall x ox, Some (x, ox) = Some (c', o) -> xv x = xv c -> WI c' /\ NC c c' o).
  { intros x ox E0 Ex. apply some_pair_inv in E0. destruct E0 as [<- <-]. exact (wv_step c x ox W I' (xv_wv _ _ Ex)). }
  pose (en := transport c <> TNone \/ ping_timer c <> None \/ pong_timer c <> None \/ handshake_complete c = true \/ In (OTaskDone TDisc TOk) o).
  assert (sync : plain l -> (cs c <> Closed -> cs c' = Closed -> en) -> WI c' /\ NC c c' o).
  { intros Hp En. exact (S_step c c' o W I' (Mw_Mv c c' o I I' (Mw_spath l c o c' Hp (step_path c l c' o E))) En). }
  destruct l; try specialize (sync Logic.I); cbn [step] in E.
  - (* LStart *)
    destruct (cs c) eqn:Ecs; try exact (same _ _ E eq_refl).
    destruct (pc (t_start c)) eqn:Ep; try discriminate. apply some_pair_inv in E. destruct E as [<- <-]. split.
    + apply (frame_WI c); [exact W|exact I'|]. unfold eqv. repeat split; try reflexivity; try exact Ecs.
    + apply NC_open. intro Hc. change (cs c = Closed) in Hc. congruence.
  - (* LFinish *)
    destruct (cs c) eqn:Ecs; try exact (same _ _ E eq_refl).
    destruct (pc (t_finish c)) eqn:Ep; try discriminate. apply some_pair_inv in E. destruct E as [<- <-].
    destruct (PK_not_connected c P ltac:(congruence)) as [Q1 Q2]. split.
    + apply WI_running; [exact I'|reflexivity|exact Q1|exact Q2].
    + apply NC_open. intro Hc. change (cs c = Closed) in Hc. congruence.
  - (* LDisconnect *)
    destruct (pc (t_disc c)) eqn:Ep; try discriminate.
    destruct (finish_fut c) eqn:Ef; try exact (same _ _ E eq_refl).
    all: apply sync; intros _ _; unfold en; destruct (handshake_complete c) eqn:Eh; [auto|right; right; right; right];
      apply some_inj in E; match type of E with disconnect_after_wait ?x = _ => pose proof (daw_returns x Eh) as HT end;
      rewrite E in HT; exact HT.
  - (* LForce *) contradiction.
  - (* LCallStart *)
    apply sync. intros Hn Hc. right. right. right. left.
    set (c0 := c <| call_tasks := call_tasks c ++ [(next_cid c, task0 <| pc := PC_Wait (next_cid c) |>)] |>) in *.
    destruct (handshake_complete c) eqn:Eh; [reflexivity|]. exfalso. apply Hn. rewrite <- Hc.
    unfold call_begin in E. rewrite (send_nohs c0 send Eh) in E. unfold finish_task in E. apply some_pair_inv in E. destruct E as [<- _]. reflexivity.
  - (* LSend *)
    apply sync. intros Hn Hc. right. right. right. left.
    destruct (handshake_complete c) eqn:Eh; [reflexivity|]. exfalso. apply Hn. rewrite <- Hc.
    rewrite (send_nohs c tys Eh) in E. apply some_pair_inv in E. destruct E as [<- _]. reflexivity.
  - (* LCancel *)
    destruct (task_running (get_task c t)); [|exact (same _ _ E eq_refl)].
    apply (same _ _ E). rewrite xv_cancel_task. destruct t; reflexivity.
  - (* LSub *) exact (same _ _ E (xv_add_handler c ty (HUser u))).
  - (* LUnsub *) exact (same _ _ E eq_refl).
  - (* LResolveDone *)
    destruct (pc (t_start c)); try discriminate; destruct (do_connect c); try discriminate; exact (same _ _ E eq_refl).
  - (* LTcpDone *)
    destruct (pc (t_start c)); try discriminate; destruct (do_connect c); try discriminate; exact (same _ _ E eq_refl).
  - (* LMade *)
    destruct (transport c); try discriminate. destruct (made c); try discriminate. destruct (noise c); exact (same _ _ E eq_refl).
  - (* LMadeWaiter *)
    destruct (made_waiter c); try discriminate; exact (same _ _ E eq_refl).
  - (* LHelperReady *)
    destruct (ready c); try discriminate. destruct (made c); try discriminate. destruct (transport c) eqn:Et; try discriminate.
    destruct r as [e|]; [|exact (same _ _ E eq_refl)]. apply sync. intros _ _. left. congruence.
  - (* LData *)
    destruct (transport c) eqn:Et; try discriminate. apply sync. intros _ _. left. congruence.
  - (* LEof *)
    destruct (transport c) eqn:Et; try discriminate. apply sync. intros _ _. left. congruence.
  - (* LLost *)
    destruct (transport c) eqn:Et; try discriminate. apply sync. intros _ _. left. congruence.
  - (* LWriteFails *) exact (same _ _ E eq_refl).
  - (* LAdvance *)
    destruct (Z.leb (now c) t && forallb (fun d => Z.leb t d) (armed_deadlines c)); [|discriminate]. exact (same _ _ E eq_refl).
  - (* LWake *)
    destruct t.
    + (* TStart *) exact (wake_start_W c c' o W E I').
    + (* TFinish *) exact (wake_finish_W c c' o W E I').
    + (* TDisc *) apply (sync Logic.I). intros Hn Hc. unfold en. destruct (wake_disc_closes c c' o E Hn Hc) as [Q|Q]; auto.
    + (* TCall *) unfold wake_call in E. destruct (pc (get_task c (TCall cid))); try discriminate.
      destruct (get_call c cid) as [kk|]; [|discriminate].
      destruct (must_cancel (get_task c (TCall cid)) || cfut_done (c_fut kk)); [|discriminate].
      pose proof (xv_take_cancel c (TCall cid)) as H1. destruct (take_cancel c (TCall cid)) as [c1 mc]. cbn [fst] in H1.
      pose proof (xv_call_finally c1 cid) as H2. unfold finish_task in E.
      apply (same _ _ E). rewrite <- H1, <- H2. reflexivity.
  - (* LIntr *)
    destruct is_start.
    + destruct (start_fut c); try discriminate. destruct (intr_start c); try discriminate; apply (same _ _ E); [rewrite xv_cancel_task|]; reflexivity.
    + destruct (finish_fut c); try discriminate. destruct (intr_finish c); try discriminate; apply (same _ _ E); [rewrite xv_cancel_task|]; reflexivity.
  - (* LDiscWaitDone *)
    destruct (pc (t_disc c)); try discriminate; destruct (finish_fut c); try discriminate; destruct (disc_wait_done c); try discriminate;
      exact (same _ _ E eq_refl).
  - (* LConnLostCb *)
    destruct (transport c) as [| |e|] eqn:Et; try discriminate. apply sync. intros _ _. left. congruence.
  - (* LTimer *)
    destruct k.
    + (* TkPing: the timer was armed, so the connection is established; it stays so unless the ping cannot be written *)
      destruct (due (ping_timer c) c) eqn:Edue; [|discriminate].
      assert (Hpi : ping_timer c <> None) by (unfold due in Edue; destruct (ping_timer c); discriminate).
      assert (Hconn : cs c = Connected) by (apply P; left; exact Hpi).
      set (c0 := c <| ping_timer := None |>) in *.
      assert (H0 : Mw c c0 []) by (constructor; try reflexivity; auto).
      assert (Hopen : forall x ox, Some (x, ox) = Some (c', o) -> cs x = Connected -> WI c' /\ NC c c' o).
      { intros x ox E0 Hx. apply some_pair_inv in E0. destruct E0 as [<- <-]. exact (leaf_connected c x ox I' Hx). }
      destruct (send_pending_ping c0); [|exact (Hopen _ _ E Hconn)].
      pose proof (Mw_send_messages c0 [T_PING_REQ]) as HS. pose proof (send_messages_none c0 [T_PING_REQ]) as HN.
      destruct (send_messages c0 [T_PING_REQ]) as [[c1 o1] ex]. cbn [fst snd] in HS.
      destruct ex.
      * apply some_pair_inv in E. destruct E as [<- <-].
        apply (S_step c c1 _ W I'); [|intros _ _; right; left; exact Hpi].
        apply (Mw_Mv c c1 _ I I'). eapply Mw_then; [exact (Mw_trans _ _ _ _ _ H0 HS)|apply Mw_refl|reflexivity].
      * destruct (HN c1 o1 eq_refl) as [-> _]. apply (Hopen _ _ E). destruct (pong_timer c0); exact Hconn.
    + (* TkPong: the timer was armed *)
      destruct (due (pong_timer c) c) eqn:Edue; [|discriminate].
      apply (sync Logic.I). intros _ _. right. right. left. unfold due in Edue. destruct (pong_timer c); discriminate.
    + (* TkHandshake *) destruct (due (hs_timer c) c); [|discriminate]. apply (same _ _ E). destruct (ready c); reflexivity.
    + (* TkConnect *) destruct (due (conn_timer c) c); [|discriminate]. apply (same _ _ E). rewrite xv_cancel_task. reflexivity.
    + (* TkCall *) destruct (get_call c cid) as [kk|]; [|discriminate]. destruct (due (c_timer kk) c); [|discriminate]. exact (same _ _ E eq_refl).
    + (* TkDiscWait *) destruct (pc (t_disc c)); try discriminate. destruct (due (disc_timer c) c); [|discriminate]. exact (same _ _ E eq_refl).
Qed.
