(* For C07 (the argument of the stop callback): what the moves of Model/Conn.v (Proofs/ConnMoves.v) can do to the
   expected-disconnect flag, to the history of stop calls and to the table entries of the three internal handlers. *)
From Coq Require Import NArith ZArith List Bool.
From RecordUpdate Require Import RecordSet.
From Verif Require Import Generated.GenConstants Model.Conn Proofs.ConnMoves Proofs.ConnCore.
Import ListNotations RecordSetNotations.
Open Scope Z_scope.
Open Scope list_scope.

Definition internal (h : hid) : bool := match h with HDisc | HPing | HTime => true | _ => false end.
Definition ty_of (h : hid) : N := match h with HDisc => T_DISC_REQ | HPing => T_PING_REQ | HTime => T_TIME_REQ | _ => 0%N end.

(* the fields the relations of this file read *)
Definition vw (c : conn) := (expected_disconnect c, stop_calls c, handlers c, pc (t_disc c), handshake_complete c).

(* the internal entries of the handler table: none disappears, one appears only under its own message type *)
Definition IH (c c' : conn) : Prop :=
  forall ty h, internal h = true ->
    (In (ty, h) (handlers c) -> In (ty, h) (handlers c')) /\
    (In (ty, h) (handlers c') -> In (ty, h) (handlers c) \/ ty = ty_of h).

(* the stop calls made between c and c' report the flag as it stands in c *)
Definition ST (c c' : conn) : Prop :=
  exists suf, stop_calls c' = stop_calls c ++ suf /\ Forall (eq (expected_disconnect c)) suf.

(* the handshake-complete flag is raised only where the internal handlers are registered *)
Definition HS (c c' : conn) : Prop :=
  handshake_complete c' = true -> handshake_complete c = true \/ In (T_DISC_REQ, HDisc) (handlers c').

(* nothing between c and c' touched the flag; Kp: nor did the disconnect task move.  Closing, sending and the dispatch of
   anything but a DisconnectRequest are in Kp. *)
Record K3 (c c' : conn) : Prop := {
  r_ex : expected_disconnect c' = expected_disconnect c;
  r_st : ST c c';
  r_ih : IH c c';
  r_hs : HS c c' }.

Record Kp (c c' : conn) : Prop := {
  r_3 : K3 c c';
  r_pd : pc (t_disc c') = pc (t_disc c) }.

(* the flag may have gone up between c and c', never down: the stop calls report true if it was up in c, false if it is
   still down in c' *)
Definition G (c c' : conn) : Prop :=
  (exists suf, stop_calls c' = stop_calls c ++ suf /\
     (expected_disconnect c = true -> Forall (eq true) suf) /\
     (expected_disconnect c' = false -> Forall (eq false) suf)) /\
  (expected_disconnect c = true -> expected_disconnect c' = true) /\
  IH c c' /\ HS c c'.

Lemma IH_refl c : IH c c.
Proof. intros ty h _. split; auto. Qed.
Lemma IH_trans a b c : IH a b -> IH b c -> IH a c.
Proof.
  intros H1 H2 ty h Hi. destruct (H1 ty h Hi) as [A1 A2]. destruct (H2 ty h Hi) as [B1 B2]. split; [auto|].
  intro H. destruct (B2 H) as [H'|H']; auto.
Qed.
Lemma IH_eq c c' : handlers c' = handlers c -> IH c c'.
Proof. intros E ty h _. rewrite E. split; auto. Qed.

Lemma HS_eq c c' : handshake_complete c' = handshake_complete c -> HS c c'.
Proof. intros E H. left. congruence. Qed.
Lemma HS_trans a b c : HS a b -> HS b c -> IH b c -> HS a c.
Proof.
  intros H1 H2 K H. destruct (H2 H) as [Hb|Hb]; [|auto]. destruct (H1 Hb) as [Ha|Ha]; [auto|].
  right. destruct (K T_DISC_REQ HDisc eq_refl) as [K1 _]. auto.
Qed.

Lemma ST_eq c c' : stop_calls c' = stop_calls c -> ST c c'.
Proof. intro E. exists []. rewrite app_nil_r. split; [exact E|constructor]. Qed.
Lemma ST_refl c : ST c c.
Proof. apply ST_eq. reflexivity. Qed.

Lemma Kp_of c c' : expected_disconnect c' = expected_disconnect c -> stop_calls c' = stop_calls c ->
  pc (t_disc c') = pc (t_disc c) -> IH c c' -> HS c c' -> Kp c c'.
Proof.
  intros A B D E F. constructor; [constructor|]; try assumption. apply ST_eq, B.
Qed.
Lemma Kp_vw c c' : vw c' = vw c -> Kp c c'.
Proof.
  unfold vw. intro E. injection E as E1 E2 E3 E4 E5. apply Kp_of; try assumption; [apply IH_eq|apply HS_eq]; assumption.
Qed.
Lemma Kp_refl c : Kp c c.
Proof. apply Kp_vw. reflexivity. Qed.
(* the end of `step c (LData items)` when an exception escapes data_received *)
Lemma Kp_force_close c e : Kp c (match transport c with TOpen | TClosing _ => c <| transport := TClosing (Some e) |> | _ => c end).
Proof. apply Kp_vw. destruct (transport c); reflexivity. Qed.

Lemma K3_trans a b c : K3 a b -> K3 b c -> K3 a c.
Proof.
  intros [A1 (s1 & A2 & A3) A4 A5] [B1 (s2 & B2 & B3) B4 B5]. constructor.
  - congruence.
  - exists (s1 ++ s2). split; [rewrite B2, A2, app_assoc; reflexivity|].
    apply Forall_app. split; [exact A3|]. rewrite A1 in B3. exact B3.
  - eapply IH_trans; eassumption.
  - eapply HS_trans; eassumption.
Qed.
Lemma Kp_trans a b c : Kp a b -> Kp b c -> Kp a c.
Proof. intros [A1 A2] [B1 B2]. constructor; [eapply K3_trans; eassumption|congruence]. Qed.
Lemma Kp_fold_left {B} (f : conn -> B -> conn) : (forall a b, Kp a (f a b)) -> forall l a, Kp a (fold_left f l a).
Proof.
  intros H l. induction l as [|b l IHl]; intro a; cbn [fold_left]; [apply Kp_refl|].
  eapply Kp_trans; [apply H|apply IHl].
Qed.

Lemma G_K3 c c' : K3 c c' -> G c c'.
Proof.
  intros [A1 (s & A2 & A3) A4 A5]. split; [|split; [congruence|split; [exact A4|exact A5]]].
  exists s. split; [exact A2|]. split; intro H; try rewrite A1 in H; rewrite H in A3; exact A3.
Qed.
Lemma G_Kp c c' : Kp c c' -> G c c'.
Proof. intros [H _]. apply G_K3. exact H. Qed.
Lemma G_refl c : G c c.
Proof. apply G_Kp, Kp_refl. Qed.
Lemma G_trans a b c : G a b -> G b c -> G a c.
Proof.
  intros ((s1 & A1 & A2 & A3) & A4 & A5 & A6) ((s2 & B1 & B2 & B3) & B4 & B5 & B6).
  split; [|split; [auto|split; [eapply IH_trans; eassumption|eapply HS_trans; eassumption]]].
  exists (s1 ++ s2). split; [rewrite B1, A1, app_assoc; reflexivity|]. split; intro H.
  - apply Forall_app. split; [auto|]. auto.
  - apply Forall_app. split; [|auto]. apply A3.
    destruct (expected_disconnect b) eqn:Eb; [|reflexivity]. rewrite (B4 eq_refl) in H. discriminate.
Qed.
Lemma G_raise c : G c (c <| expected_disconnect := true |>).
Proof.
  split; [|split; [reflexivity|split; [apply IH_eq; reflexivity|apply HS_eq; reflexivity]]].
  exists []. split; [symmetry; apply app_nil_r|]. split; constructor.
Qed.

(* "the flag is up afterwards, and every stop call made reports true" *)
Definition Sets (c c' : conn) : Prop :=
  expected_disconnect c' = true /\ exists suf, stop_calls c' = stop_calls c ++ suf /\ Forall (eq true) suf.
Lemma Sets_raise_G c c' : G (c <| expected_disconnect := true |>) c' -> Sets c c'.
Proof.
  intros ((s & A1 & A2 & A3) & A4 & A5 & A6). split; [apply A4; reflexivity|].
  exists s. split; [exact A1|apply A2; reflexivity].
Qed.
Lemma Sets_G c c1 c2 : Sets c c1 -> G c1 c2 -> Sets c c2.
Proof.
  intros (A1 & s1 & A2 & A3) ((s2 & B1 & B2 & B3) & B4 & B5 & B6). split; [auto|].
  exists (s1 ++ s2). split; [rewrite B1, A2, app_assoc; reflexivity|]. apply Forall_app. auto.
Qed.
Lemma Sets_vw c c1 c' : stop_calls c1 = stop_calls c -> Sets c1 c' -> Sets c c'.
Proof. intros E (A & s & B & D). split; [exact A|]. exists s. rewrite <- E. auto. Qed.
Lemma Kp_Sets c c1 c2 : Kp c c1 -> expected_disconnect c = false -> stop_calls c1 = stop_calls c -> Sets c1 c2 -> Sets c c2.
Proof. intros _ _. exact (Sets_vw c c1 c2). Qed.

Definition GD (c c' : conn) : Prop := G c c'.

(* the disconnect task keeps its program point *)
Definition GP (c c' : conn) : Prop := G c c' /\ pc (t_disc c') = pc (t_disc c).
Lemma GP_Kp c c' : Kp c c' -> GP c c'.
Proof. intro K. split; [apply G_Kp, K|apply K]. Qed.
Lemma GP_refl c : GP c c.
Proof. apply GP_Kp, Kp_refl. Qed.
Lemma GP_trans a b c : GP a b -> GP b c -> GP a c.
Proof. intros [A1 A2] [B1 B2]. split; [eapply G_trans; eassumption|congruence]. Qed.

Lemma add_handler_same c ty h : existsb (fun p => N.eqb (fst p) ty && hid_eqb (snd p) h) (handlers c) = true -> add_handler c ty h = c.
Proof. intro E. unfold add_handler. rewrite E. reflexivity. Qed.
Lemma add_handler_new c ty h : existsb (fun p => N.eqb (fst p) ty && hid_eqb (snd p) h) (handlers c) = false ->
  add_handler c ty h = c <| handlers := handlers c ++ [(ty, h)] |>.
Proof. intro E. unfold add_handler. rewrite E. reflexivity. Qed.

Lemma Kp_add c ty h : internal h = false \/ ty = ty_of h -> Kp c (add_handler c ty h).
Proof.
  intro Hh. destruct (existsb (fun p => N.eqb (fst p) ty && hid_eqb (snd p) h) (handlers c)) eqn:E.
  - rewrite add_handler_same by exact E. apply Kp_refl.
  - rewrite add_handler_new by exact E. apply Kp_of; try reflexivity; [|apply HS_eq; reflexivity].
    intros ty' h' Hi. cbn. split; intro Q; [apply in_or_app; auto|].
    apply in_app_or in Q. destruct Q as [Q|[Q|[]]]; [auto|]. injection Q as <- <-. destruct Hh as [Hh|Hh]; [congruence|auto].
Qed.
Lemma Kp_remove c ty h : internal h = false -> Kp c (remove_handler c ty h).
Proof.
  intro Hn. apply Kp_of; try reflexivity; [|apply HS_eq; reflexivity].
  intros ty' h' Hi. cbn. split; intro H.
  - apply filter_In. split; [exact H|]. cbn [fst snd].
    assert (E : hid_eqb h' h = false) by (destruct h', h; try reflexivity; discriminate).
    rewrite E, andb_false_r. reflexivity.
  - apply filter_In in H. left. tauto.
Qed.
Lemma Kp_action c a : Kp c (run_action c a).
Proof. destruct a; [apply Kp_add; auto|apply Kp_remove; reflexivity]. Qed.
Lemma Kp_fold_actions l : forall c, Kp c (fold_left run_action l c).
Proof. exact (Kp_fold_left run_action Kp_action l). Qed.
Lemma Kp_fold_add l h : internal h = false -> forall c, Kp c (fold_left (fun a ty => add_handler a ty h) l c).
Proof. intro Hn. apply Kp_fold_left. intros a ty. apply Kp_add. left. exact Hn. Qed.
Lemma Kp_fold_remove l h : internal h = false -> forall c, Kp c (fold_left (fun a ty => remove_handler a ty h) l c).
Proof. intro Hn. apply Kp_fold_left. intros a ty. apply Kp_remove, Hn. Qed.

Lemma Kp_internal_handlers c : Kp c (internal_handlers c).
Proof.
  unfold internal_handlers.
  eapply Kp_trans; [apply (Kp_add c T_DISC_REQ HDisc); auto|]. eapply Kp_trans; [apply (Kp_add _ T_PING_REQ HPing); auto|].
  apply (Kp_add _ T_TIME_REQ HTime); auto.
Qed.
Lemma internal_handlers_has c : In (T_DISC_REQ, HDisc) (handlers (internal_handlers c)).
Proof.
  assert (H : In (T_DISC_REQ, HDisc) (handlers (add_handler c T_DISC_REQ HDisc))).
  { destruct (existsb (fun p => N.eqb (fst p) T_DISC_REQ && hid_eqb (snd p) HDisc) (handlers c)) eqn:E.
    - rewrite add_handler_same by exact E. apply existsb_exists in E. destruct E as ([ty h] & Hin & Hc). cbn in Hc.
      apply andb_true_iff in Hc. destruct Hc as [A B]. apply N.eqb_eq in A. destruct h; try discriminate. subst. exact Hin.
    - rewrite add_handler_new by exact E. cbn. apply in_or_app. right. left. reflexivity. }
  unfold internal_handlers.
  destruct (Kp_add (add_handler (add_handler c T_DISC_REQ HDisc) T_PING_REQ HPing) T_TIME_REQ HTime) as [[_ _ K2 _] _]; [auto|].
  destruct (Kp_add (add_handler c T_DISC_REQ HDisc) T_PING_REQ HPing) as [[_ _ K1 _] _]; [auto|].
  apply (K2 T_DISC_REQ HDisc eq_refl), (K1 T_DISC_REQ HDisc eq_refl), H.
Qed.

Lemma Kp_close c o c' : close_atom c o c' -> Kp c c'.
Proof.
  destruct 1; try (apply Kp_vw; reflexivity).
  - (* ACloseState: the handshake flag goes down *)
    apply Kp_of; try reflexivity; [apply IH_eq; reflexivity|]. intro Q. discriminate Q.
  - (* AFire: the stop callback reports the flag *)
    constructor; [constructor|]; try reflexivity; [|apply IH_eq; reflexivity|apply HS_eq; reflexivity].
    exists [expected_disconnect c]. split; [reflexivity|constructor; [reflexivity|constructor]].
Qed.
Lemma Kp_cpath c o c' : path close_atom c o c' -> Kp c c'.
Proof. apply path_rel; [exact Kp_refl|exact Kp_trans|exact Kp_close]. Qed.

Lemma Kp_cleanup c : Kp c (fst (cleanup c)).
Proof. exact (Kp_cpath _ _ _ (path_cleanup c)). Qed.
Lemma Kp_send_messages c tys : Kp c (fst (fst (send_messages c tys))).
Proof. exact (Kp_cpath _ _ _ (path_send_messages c tys)). Qed.
Lemma send_messages_ok c tys c1 o : send_messages c tys = (c1, o, None) -> c1 = c.
Proof. intro H. exact (proj1 (send_messages_none c tys c1 o H)). Qed.

Lemma vw_schedule_keep_alive c : vw (schedule_keep_alive c) = vw c.
Proof. reflexivity. Qed.

Lemma GP_data c o c' : data_atom c o c' -> GP c c'.
Proof.
  destruct 1; try (apply GP_Kp, Kp_vw; reflexivity).
  - (* DClose *) apply GP_Kp, (Kp_close c o c'). assumption.
  - (* DAction *) apply GP_Kp, Kp_action.
  - (* DExpected: the handler of a DisconnectRequest raises the flag *) split; [apply G_raise|reflexivity].
Qed.
Lemma GP_dpath c o c' : path data_atom c o c' -> GP c c'.
Proof. apply path_rel; [exact GP_refl|exact GP_trans|exact GP_data]. Qed.

Lemma G_run_handlers hs m c : G c (fst (fst (run_handlers c hs m))) /\ pc (t_disc (fst (fst (run_handlers c hs m)))) = pc (t_disc c).
Proof. exact (GP_dpath _ _ _ (path_run_handlers hs m c)). Qed.
Lemma G_data_loop items c : G c (fst (fst (data_loop c items))) /\ pc (t_disc (fst (fst (data_loop c items)))) = pc (t_disc c).
Proof. exact (GP_dpath _ _ _ (path_data_loop items c)). Qed.

Lemma vw_handle_call_message c cid m : vw (handle_call_message c cid m) = vw c.
Proof. unfold handle_call_message. repeat dm; reflexivity. Qed.
Lemma Kp_call_handler c h m : h <> HDisc -> Kp c (fst (fst (call_handler c h m))).
Proof.
  intro Hn. destruct h; cbn [call_handler]; try contradiction; try apply Kp_send_messages.
  - cbn [fst]. apply Kp_vw, vw_handle_call_message.
  - cbn [fst]. apply Kp_fold_actions.
Qed.
Lemma Sets_call_disc c m : Sets c (fst (fst (call_handler c HDisc m))).
Proof.
  apply Sets_raise_G. change (G (c <| expected_disconnect := true |>) (fst (fst (call_handler c HDisc m)))).
  cbn [call_handler]. pose proof (Kp_send_messages (c <| expected_disconnect := true |>) [T_DISC_RESP]) as H.
  destruct (send_messages (c <| expected_disconnect := true |>) [T_DISC_RESP]) as [[c2 o] ex]. cbn [fst] in H.
  destruct ex; cbn [fst]; [apply G_Kp, H|].
  pose proof (Kp_cleanup c2) as H2. destruct (cleanup c2) as [c3 o3]. cbn [fst] in *. apply G_Kp. eapply Kp_trans; eassumption.
Qed.
Lemma call_handler_no_exc c h m : h <> HDisc -> h <> HPing -> h <> HTime -> snd (call_handler c h m) = None.
Proof. intros A B D. destruct h; try contradiction; reflexivity. Qed.

Lemma Kp_run_handlers hs m : ~ In HDisc hs -> forall c, Kp c (fst (fst (run_handlers c hs m))).
Proof.
  induction hs as [|h hs IHh]; intros Hn c; cbn [run_handlers fst]; [apply Kp_refl|].
  assert (Hh : h <> HDisc) by (intros ->; apply Hn; left; reflexivity).
  pose proof (Kp_call_handler c h m Hh) as H1. destruct (call_handler c h m) as [[c1 o1] ex]. cbn [fst] in H1.
  destruct ex; cbn [fst]; [exact H1|].
  assert (Hr : ~ In HDisc hs) by (intro; apply Hn; right; assumption).
  specialize (IHh Hr c1). destruct (run_handlers c1 hs m) as [[c2 o2] ex2]. cbn [fst] in *.
  eapply Kp_trans; eassumption.
Qed.
Lemma stops_fold_actions l : forall c, stop_calls (fold_left run_action l c) = stop_calls c.
Proof.
  apply (fold_left_view stop_calls). intros c a.
  destruct a; cbn [run_action]; [unfold add_handler; destruct (existsb _ _)|]; reflexivity.
Qed.
Lemma stops_call_handler c h m : h <> HDisc -> h <> HPing -> h <> HTime ->
  stop_calls (fst (fst (call_handler c h m))) = stop_calls c.
Proof.
  intros A B D. destruct h; try contradiction; cbn [call_handler fst].
  - pose proof (vw_handle_call_message c cid m) as H. unfold vw in H. injection H as _ H _ _ _. exact H.
  - apply stops_fold_actions.
Qed.

(* a disconnect handler in a snapshot that holds no keep-alive / time handler is reached *)
Lemma Sets_run_handlers hs m : In HDisc hs -> ~ In HPing hs -> ~ In HTime hs ->
  forall c, Sets c (fst (fst (run_handlers c hs m))).
Proof.
  induction hs as [|h hs IHh]; intros Hi Hp Ht c; [destruct Hi|]. cbn [run_handlers].
  destruct (match h with HDisc => true | _ => false end) eqn:E.
  - destruct h; try discriminate.
    pose proof (Sets_call_disc c m) as A. destruct (call_handler c HDisc m) as [[c1 o1] ex]. cbn [fst] in A.
    destruct ex; cbn [fst]; [exact A|].
    destruct (G_run_handlers hs m c1) as [H2 _]. destruct (run_handlers c1 hs m) as [[c2 o2] ex2]. cbn [fst] in *.
    eapply Sets_G; eassumption.
  - assert (Hn : h <> HDisc) by (intros ->; discriminate).
    assert (Hn2 : h <> HPing) by (intros ->; apply Hp; left; reflexivity).
    assert (Hn3 : h <> HTime) by (intros ->; apply Ht; left; reflexivity).
    pose proof (call_handler_no_exc c h m Hn Hn2 Hn3) as Ex. pose proof (stops_call_handler c h m Hn Hn2 Hn3) as Es.
    destruct (call_handler c h m) as [[c1 o1] ex]. cbn [fst snd] in Ex, Es. subst ex.
    assert (Hi' : In HDisc hs) by (destruct Hi as [Hi|Hi]; [congruence|exact Hi]).
    assert (Hp' : ~ In HPing hs) by (intro; apply Hp; right; assumption).
    assert (Ht' : ~ In HTime hs) by (intro; apply Ht; right; assumption).
    specialize (IHh Hi' Hp' Ht' c1). destruct (run_handlers c1 hs m) as [[c2 o2] ex2]. cbn [fst] in *.
    exact (Sets_vw c c1 c2 Es IHh).
Qed.

(* internal handlers sit under their own message type *)
Definition IHok (c : conn) : Prop := forall ty h, internal h = true -> In (ty, h) (handlers c) -> ty = ty_of h.
Lemma IHok_IH c c' : IHok c -> IH c c' -> IHok c'.
Proof. intros H K ty h Hi Hin. destruct (K ty h Hi) as [_ B]. destruct (B Hin) as [B'|B']; auto. Qed.

Definition snapshot (c : conn) (ty : N) : list hid := map snd (filter (fun p => N.eqb (fst p) ty) (handlers c)).
Lemma snapshot_in c ty h : In h (snapshot c ty) <-> In (ty, h) (handlers c).
Proof.
  unfold snapshot. rewrite in_map_iff. split.
  - intros ([ty' h'] & E & H). cbn in E. subst h'. apply filter_In in H. destruct H as [H1 H2]. cbn in H2.
    apply N.eqb_eq in H2. subst. exact H1.
  - intro H. exists (ty, h). split; [reflexivity|]. apply filter_In. split; [exact H|]. cbn. apply N.eqb_refl.
Qed.

Definition pp_reset (c : conn) : conn := c <| pong_timer := None |> <| send_pending_ping := false |>.
Lemma process_packet_open c m : cs c <> Closed -> registered (m_ty m) = true -> m_valid m = true ->
  process_packet c m = run_handlers (pp_reset c) (snapshot (pp_reset c) (m_ty m)) m.
Proof.
  intros H1 H2 H3. unfold process_packet. rewrite when_open, H2, H3 by exact H1. reflexivity.
Qed.

Lemma Kp_process_packet c m : ~ In (m_ty m, HDisc) (handlers c) -> Kp c (fst (fst (process_packet c m))).
Proof.
  intro Hn. destruct (closed_or_open (cs c)) as [Ec|Ec]; [unfold process_packet; rewrite when_closed by exact Ec; apply Kp_refl|].
  destruct (registered (m_ty m)) eqn:Er; [|unfold process_packet; rewrite when_open, Er by exact Ec; apply Kp_refl].
  destruct (m_valid m) eqn:Ev.
  - (* dispatched: no disconnect handler is in the snapshot *)
    rewrite process_packet_open by assumption.
    eapply Kp_trans; [apply (Kp_vw c (pp_reset c)); reflexivity|]. apply Kp_run_handlers.
    intro Q. apply (snapshot_in (pp_reset c)) in Q. exact (Hn Q).
  - (* undecodable: a protocol error closes the connection *)
    unfold process_packet. rewrite when_open, Er, Ev by exact Ec. cbn [negb].
    pose proof (Kp_cpath _ _ _ (path_report_fatal c (Lib LProtocol))) as H. destruct (report_fatal c (Lib LProtocol)). exact H.
Qed.

Definition has_disc_req (items : list ditem) : Prop := exists m, In (DFrame m) items /\ m_ty m = T_DISC_REQ.

Lemma Kp_data_loop items : ~ has_disc_req items -> forall c, IHok c -> Kp c (fst (fst (data_loop c items))).
Proof.
  induction items as [|i items IHi]; intros Hn c Hok; cbn [data_loop fst]; [apply Kp_refl|].
  destruct i as [m|req].
  - assert (Hm : ~ In (m_ty m, HDisc) (handlers c)).
    { intro Hin. apply Hn. exists m. split; [left; reflexivity|]. apply (Hok (m_ty m) HDisc eq_refl Hin). }
    pose proof (Kp_process_packet c m Hm) as H1. destruct (process_packet c m) as [[c1 o1] ex]. cbn [fst] in H1.
    destruct ex; cbn [fst]; [exact H1|].
    assert (Hn' : ~ has_disc_req items) by (intros (m' & A & B); apply Hn; exists m'; split; [right; exact A|exact B]).
    assert (Hok1 : IHok c1) by (eapply IHok_IH; [exact Hok|]; destruct H1 as [[_ _ K] _]; exact K).
    specialize (IHi Hn' c1 Hok1). destruct (data_loop c1 items) as [[c2 o2] ex2]. cbn [fst] in *.
    eapply Kp_trans; eassumption.
  - match goal with |- context [helper_error c ?e] =>
      pose proof (Kp_cpath _ _ _ (path_helper_error c e)) as H; destruct (helper_error c e) as [c1 o1] end.
    exact H.
Qed.

(* this side ends the connection (ConnMoves.initiates_locally), or the peer does in this chunk of data *)
Definition initiates_now (l : label) : Prop :=
  match l with
  | LForce | LDisconnect | LWake TDisc => True
  | LData items => has_disc_req items
  | _ => False
  end.

Definition PdNone (c c' : conn) : Prop := pc (t_disc c) = PNone -> pc (t_disc c') = PNone.

Lemma K3_same c c' : expected_disconnect c' = expected_disconnect c -> stop_calls c' = stop_calls c -> handlers c' = handlers c ->
  handshake_complete c' = handshake_complete c -> K3 c c'.
Proof. intros A B D F. constructor; [exact A|apply ST_eq, B|apply IH_eq, D|apply HS_eq, F]. Qed.

(* what one move of label l does: G always; the disconnect task moves only under a label that runs it; the flag is raised
   only by a label that initiates the disconnect here, or by the peer's request inside a chunk of data *)
Definition RR (l : label) (c c' : conn) : Prop :=
  G c c' /\ (~ runs l TDisc -> pc (t_disc c') = pc (t_disc c)) /\ (~ initiates_locally l -> ~ carries_data l -> K3 c c').

Lemma RR_Kp l c c' : Kp c c' -> RR l c c'.
Proof. intros [K P]. split; [apply G_K3, K|]. split; auto. Qed.
Lemma RR_K3 l c c' : K3 c c' -> pc (t_disc c') = pc (t_disc c) -> RR l c c'.
Proof. intros K P. apply RR_Kp. constructor; assumption. Qed.
Lemma RR_disc l c c' : runs l TDisc -> K3 c c' -> RR l c c'.
Proof. intros Hr K. split; [apply G_K3, K|]. split; [intro Q; contradiction|intros _ _; exact K]. Qed.
Lemma RR_refl l c : RR l c c.
Proof. apply RR_Kp, Kp_refl. Qed.
Lemma RR_trans l a b c : RR l a b -> RR l b c -> RR l a c.
Proof.
  intros (A1 & A2 & A3) (B1 & B2 & B3). split; [eapply G_trans; eassumption|]. split.
  - intro H. rewrite B2, A2; auto.
  - intros H1 H2. eapply K3_trans; eauto.
Qed.

Lemma Kp_call_finally c cid : Kp c (call_finally c cid).
Proof.
  unfold call_finally. destruct (get_call c cid) as [k|]; [|apply Kp_refl]. cbv zeta.
  match goal with |- Kp c (?x <| waiters := _ |>) => apply (Kp_trans c x); [|apply Kp_vw; reflexivity] end.
  eapply Kp_trans; [|apply Kp_fold_remove; reflexivity]. apply Kp_vw. reflexivity.
Qed.

(* only the move to CONNECTED needs to know that the handshake flag was up, and only a label that runs finish_connection makes it *)
Lemma RR_step l c o c' : step_atom l c o c' -> shape c \/ ~ runs l TFinish -> RR l c c'.
Proof.
  destruct 1; intro Sh; try (apply RR_Kp, Kp_vw; reflexivity);
    lazymatch goal with
    | H : close_atom _ _ _ |- _ => apply RR_Kp, (Kp_close _ _ _ H)
    | H : data_atom _ _ _ |- _ => (* under a label that carries data: the peer's request may raise the flag *)
      destruct (GP_data _ _ _ H) as [A B]; split; [exact A|]; split; [intros _; exact B|]; intros _ Q; contradiction
    | |- RR _ _ (register_call _ _ _ _ _ _) => (* handlers of the call only *)
      apply RR_Kp; unfold register_call; (eapply Kp_trans; [|apply Kp_fold_add; reflexivity]); apply Kp_vw; reflexivity
    | |- RR _ _ (call_finally _ _) => apply RR_Kp, Kp_call_finally
    | |- RR _ _ (add_handler _ _ (HUser _)) => apply RR_Kp, Kp_add; auto
    | |- RR _ _ (remove_handler _ _ (HUser _)) => apply RR_Kp, Kp_remove; reflexivity
    | M : tmove (get_task ?c ?t) _ |- _ => (* STask *)
      apply RR_K3; [destruct t; apply K3_same; reflexivity|]; apply tmove_pc in M; destruct t; try reflexivity; exact M
    | |- RR _ _ (set_task _ ?t (_ <| must_cancel := _ |>)) => (* STaskCancel *)
      apply RR_K3; destruct t; try reflexivity; apply K3_same; reflexivity
    | |- RR _ _ (set_task _ ?t (_ <| user_cancelled := true |>)) => apply RR_K3; destruct t; try reflexivity; apply K3_same; reflexivity
    | _ => idtac
    end.
  - (* STaskDone: the disconnect task ends only under a label that runs it *)
    destruct t; [apply RR_K3|apply RR_K3|apply RR_disc; [assumption|]|apply RR_K3]; try reflexivity; apply K3_same; reflexivity.
  - (* SSockOpen: the handshake flag stays down *)
    apply RR_Kp, Kp_of; try reflexivity; [apply IH_eq; reflexivity|]. intro Q. discriminate Q.
  - (* SHsDone: the flag goes up where the internal handlers are registered *)
    match goal with |- RR l c (internal_handlers ?x) => destruct (Kp_internal_handlers x) as [[A S E _] F] end.
    apply RR_Kp. constructor; [constructor|]; [exact A|exact S|exact E| |exact F].
    intros _. right. apply internal_handlers_has.
  - (* SConnected: the handshake was complete already, the hello being awaited *)
    apply RR_Kp, Kp_of; try reflexivity; [apply IH_eq; reflexivity|]. intros _. left.
    destruct Sh as [((_ & F2) & _ & J2)|Q]; [|contradiction]. revert F2 J2. unfold core_of. core_fields.
    match goal with H : pc (t_finish c) = PF_Hello _ |- _ => rewrite H end. intros -> [->|Q]; [reflexivity|contradiction].
  - (* SExpected: only under a label that initiates the disconnect here *)
    split; [apply G_raise|]. split; [reflexivity|]. intros Q. contradiction.
  - (* SDiscWait *)
    subst l. apply RR_disc; [reflexivity|apply K3_same; reflexivity].
  - (* SPcDiscWait *)
    subst l. apply RR_disc; [reflexivity|apply K3_same; reflexivity].
  - (* SPcDiscResp *)
    apply RR_disc; [assumption|apply K3_same; reflexivity].
Qed.

Lemma RR_path l c o c' : path (step_atom l) c o c' -> shape c \/ ~ runs l TFinish -> RR l c c'.
Proof.
  apply (path_rel_under _ (fun x => shape x \/ ~ runs l TFinish) (RR l)); [exact (RR_refl l)|exact (RR_trans l)| |exact (RR_step l)].
  intros x ox x' A [S|Q]; [left; exact (shape_step l _ _ _ A S)|right; exact Q].
Qed.

Lemma runs_disc_initiates l : runs l TDisc -> initiates_locally l.
Proof.
  destruct l; cbn [runs]; try contradiction; [right; left; reflexivity|intros [cid Q]; discriminate Q|].
  intros <-. right. right. reflexivity.
Qed.
Lemma runs_disc_cases l : ~ runs l TDisc \/ l = LDisconnect \/ l = LWake TDisc.
Proof.
  destruct l; cbn [runs]; auto; [left; intros [cid Q]; discriminate Q|].
  destruct t; auto; left; intro Q; discriminate Q.
Qed.
Lemma raise_twice c : c <| expected_disconnect := true |> <| expected_disconnect := true |> = c <| expected_disconnect := true |>.
Proof. destruct c; reflexivity. Qed.
Lemma Sets_disconnect_after_wait l c : runs l TDisc -> Sets c (fst (disconnect_after_wait c)).
Proof.
  intro Hr. pose proof (runs_disc_initiates l Hr) as Hl.
  assert (Hf : ~ runs l TFinish) by (destruct (runs_disc_cases l) as [Q|[-> | ->]]; [contradiction|intro Q; discriminate Q..]).
  apply Sets_raise_G. set (c1 := c <| expected_disconnect := true |>).
  assert (E : disconnect_after_wait c1 = disconnect_after_wait c) by (unfold disconnect_after_wait, c1; rewrite raise_twice; reflexivity).
  rewrite <- E. exact (proj1 (RR_path l c1 _ _ (path_disconnect_after_wait l c1 Hl Hr) (or_intror Hf))).
Qed.

Lemma initiates_locally_now l : initiates_locally l -> initiates_now l.
Proof. intros [->|[->| ->]]; exact I. Qed.

Theorem step_reason c l c' o : Inv c -> IHok c -> step c l = Some (c', o) ->
  G c c' /\ (~ initiates_now l -> Kp c c') /\ (l <> LDisconnect -> PdNone c c').
Proof.
  intros HI Hok E. destruct (RR_path l c o c' (step_path _ _ _ _ E) (or_introl (Inv_shape c HI))) as (HG & HP & HK).
  split; [exact HG|]. split.
  - intro Hn. assert (Hl : ~ initiates_locally l) by (intro Q; apply Hn, initiates_locally_now, Q).
    assert (Hr : ~ runs l TDisc) by (intro Q; apply Hl, runs_disc_initiates, Q).
    destruct l; try (constructor; [apply (HK Hl); intros [? Q]; discriminate Q|exact (HP Hr)]).
    (* a chunk of data: the flag is raised only by a DisconnectRequest in the chunk *)
    cbn [step] in E. destruct (transport c); try discriminate. destruct (made c); try discriminate.
    pose proof (Kp_data_loop items Hn c Hok) as K. destruct (data_loop c items) as [[c1 o1] ex]. cbn [fst] in K.
    destruct ex; apply some_pair_inv in E; destruct E as [<- _]; [exact (Kp_trans _ _ _ K (Kp_force_close c1 _))|exact K].
  - intros Hd Q. destruct (runs_disc_cases l) as [Hr|[->| ->]]; [rewrite (HP Hr); exact Q|contradiction|].
    (* the disconnect task cannot be woken before it has started *)
    cbn [step] in E. unfold wake_disc in E. cbn [get_task] in E. rewrite Q in E. discriminate.
Qed.
