(* Soundness of the boolean checkers of Model/Schema.v: where a checker evaluates to true on a table, the table has the
   property the checker stands for.  C13 runs them on the generated tables; the lemmas of section Reflect, about the
   list functions the checkers are made of, also serve ConvertProofs (C14) and CommandProofs (C15). *)
From Coq Require Import NArith ZArith String List Bool Lia.
From Verif Require Import Model.Schema Proofs.ListFacts.
Import ListNotations.
Open Scope string_scope.

Section Reflect.
  Context {A : Type} (eqb : A -> A -> bool) (eqb_eq : forall x y, eqb x y = true <-> x = y).

  Lemma list_eqb_eq a : forall b, list_eqb eqb a b = true <-> a = b.
  Proof.
    induction a as [|x a IH]; intros [|y b]; cbn; [easy..|]. split.
    - intro E. apply andb_true_iff in E. destruct E as [E1 E2]. apply eqb_eq in E1. apply IH in E2. congruence.
    - intros [= -> ->]. apply andb_true_iff. split; [apply eqb_eq|apply IH]; reflexivity.
  Qed.

  Lemma memb_In x l : memb eqb x l = true <-> In x l.
  Proof. exact (existsb_eqb_In eqb eqb_eq x l). Qed.

  Lemma nodupb_NoDup l : nodupb eqb l = true -> NoDup l.
  Proof.
    induction l as [|x l IH]; cbn; intro E; [constructor|].
    apply andb_true_iff in E. destruct E as [E1 E2]. constructor; [|apply IH; assumption].
    rewrite <- memb_In. apply negb_true_iff in E1. congruence.
  Qed.

  Lemma same_elements_sound a b :
    forallb (fun x => memb eqb x b) a && forallb (fun x => memb eqb x a) b = true -> forall x, In x a <-> In x b.
  Proof.
    intro E. apply andb_true_iff in E. destruct E as [Hab Hba]. rewrite forallb_forall in Hab, Hba.
    intro x. split; intro H; apply memb_In; auto.
  Qed.

  Lemma forallb_unless {B} (key : B -> A) (exc : list A) (ok : B -> bool) l :
    forallb (fun x => memb eqb (key x) exc || ok x) l = true ->
    forall x, In x l -> ~ In (key x) exc -> ok x = true.
  Proof.
    rewrite forallb_forall. intros H x Hx Hne. specialize (H x Hx). apply orb_true_iff in H.
    destruct H as [H|H]; [|exact H]. apply memb_In in H. contradiction.
  Qed.
End Reflect.

Lemma pair_eqb_eq {A B} (ea : A -> A -> bool) (eb : B -> B -> bool) :
  (forall x y, ea x y = true <-> x = y) -> (forall x y, eb x y = true <-> x = y) ->
  forall p q : A * B, ea (fst p) (fst q) && eb (snd p) (snd q) = true <-> p = q.
Proof.
  intros Ha Hb [a b] [a' b']. cbn. rewrite andb_true_iff, Ha, Hb.
  split; [intros [-> ->]|intros [= -> ->]]; auto.
Qed.

Lemma sz_eqb_eq a b : sz_eqb a b = true <-> a = b.
Proof. apply (pair_eqb_eq _ _ String.eqb_eq Z.eqb_eq). Qed.
Lemma ns_eqb_eq a b : ns_eqb a b = true <-> a = b.
Proof. apply (pair_eqb_eq _ _ N.eqb_eq String.eqb_eq). Qed.

Lemma field_eqb_eq a b : field_eqb a b = true <-> a = b.
Proof.
  unfold field_eqb. rewrite !andb_true_iff, !String.eqb_eq, N.eqb_eq, Bool.eqb_true_iff.
  destruct a, b; cbn. split; [intros [[[-> ->] ->] ->]|intros [= -> -> -> ->]]; auto.
Qed.
Lemma msg_eqb_eq a b : msg_eqb a b = true <-> a = b.
Proof.
  unfold msg_eqb. rewrite !andb_true_iff, String.eqb_eq, !N.eqb_eq, (list_eqb_eq _ field_eqb_eq).
  destruct a, b; cbn. split; [intros [[[-> ->] ->] ->]|intros [= -> -> -> ->]]; auto.
Qed.
Lemma enum_eqb_eq a b : enum_eqb a b = true <-> a = b.
Proof.
  unfold enum_eqb. rewrite andb_true_iff, String.eqb_eq, (list_eqb_eq _ sz_eqb_eq).
  destruct a, b; cbn. split; [intros [-> ->]|intros [= -> ->]]; auto.
Qed.

Lemma In_proto_ids msgs id name :
  In (id, name) (proto_ids msgs) <-> exists m, In m msgs /\ m_name m = name /\ m_id m = id /\ id <> 0%N.
Proof.
  unfold proto_ids. rewrite in_map_iff. split.
  - intros (m & [= <- <-] & Hin). apply filter_In in Hin. destruct Hin as [Hin Hnz].
    apply negb_true_iff, N.eqb_neq in Hnz. eauto.
  - intros (m & Hin & <- & <- & Hnz). exists m. split; [reflexivity|].
    apply filter_In. split; [assumption|]. apply negb_true_iff, N.eqb_neq. assumption.
Qed.

(* C13 (1): the registry is exactly the set of id options *)
Theorem check_registry_is_proto_sound registry msgs :
  check_registry_is_proto registry msgs = true ->
  forall id name, In (id, name) registry <->
    exists m, In m msgs /\ m_name m = name /\ m_id m = id /\ id <> 0%N.
Proof.
  unfold check_registry_is_proto. intro E.
  intros id name. rewrite <- In_proto_ids. apply (same_elements_sound _ ns_eqb_eq), E.
Qed.

Lemma N_seq_nth len : forall start k, (k < len)%nat ->
  nth_error (N_seq start len) k = Some (start + N.of_nat k)%N.
Proof.
  induction len as [|len IH]; intros start k Hk; [lia|].
  destruct k as [|k]; cbn [N_seq nth_error].
  - f_equal. lia.
  - rewrite IH by lia. f_equal. lia.
Qed.

Lemma N_seq_In len : forall start x, In x (N_seq start len) -> (start <= x < start + N.of_nat len)%N.
Proof.
  induction len as [|len IH]; intros start x H; cbn in H; [contradiction|].
  destruct H as [<-|H]; [lia|]. apply IH in H. lia.
Qed.

Lemma N_seq_NoDup len : forall start, NoDup (N_seq start len).
Proof.
  induction len as [|len IH]; intro start; cbn; constructor; [|apply IH].
  intro H. apply N_seq_In in H. lia.
Qed.

(* C13 (2): ids are 1..n in table order, positional lookup is right *)
Theorem check_contiguous_sound registry :
  check_contiguous registry = true ->
  NoDup (map fst registry) /\ NoDup (map snd registry) /\
  (forall id name, In (id, name) registry -> (1 <= id <= N.of_nat (length registry))%N) /\
  (forall id, (1 <= id <= N.of_nat (length registry))%N ->
     exists name, nth_error registry (N.to_nat id - 1) = Some (id, name)).
Proof.
  unfold check_contiguous. intro E. apply andb_true_iff in E. destruct E as [E1 E2].
  apply (list_eqb_eq _ N.eqb_eq) in E1. apply (nodupb_NoDup _ String.eqb_eq) in E2.
  split; [rewrite E1; apply N_seq_NoDup|]. split; [assumption|]. split.
  - intros id name Hin. apply (in_map fst) in Hin. cbn [fst] in Hin. rewrite E1 in Hin.
    apply N_seq_In in Hin. lia.
  - intros id Hid.
    assert (H : nth_error (map fst registry) (N.to_nat id - 1) = Some id).
    { rewrite E1, N_seq_nth by lia. f_equal. lia. }
    rewrite nth_error_map in H. destruct (nth_error registry _) as [[i name]|]; [|discriminate].
    injection H as <-. exists name. reflexivity.
Qed.

(* C13 (3): compiled descriptors = .proto text *)
Theorem check_descriptors_sound dm pm de pe :
  check_descriptors dm pm de pe = true -> dm = pm /\ de = pe.
Proof.
  unfold check_descriptors. intro E. apply andb_true_iff in E. destruct E as [E1 E2].
  split; [apply (list_eqb_eq _ msg_eqb_eq), E1|apply (list_eqb_eq _ enum_eqb_eq), E2].
Qed.

Lemma find_msg_Some msgs c m : find_msg msgs c = Some m -> In m msgs /\ m_name m = c.
Proof. unfold find_msg. intro E. apply find_some in E. rewrite String.eqb_eq in E. exact E. Qed.

(* [src_ok_sent] and [src_ok_subscribed] are this test with the source that must not occur. *)
Lemma src_ok_sound msgs bad c :
  match find_msg msgs c with Some m => negb (N.eqb (m_source m) bad) | None => false end = true ->
  exists m, In m msgs /\ m_name m = c /\ m_source m <> bad.
Proof.
  destruct (find_msg msgs c) as [m|] eqn:Ef; [|discriminate]. intro E.
  apply find_msg_Some in Ef. apply negb_true_iff, N.eqb_neq in E. exists m. tauto.
Qed.

(* C13 (4): direction *)
Theorem check_direction_sound msgs api :
  check_direction msgs api = true ->
  NoDup (map m_name msgs) /\
  forall ep sent subs, In (ep, sent, subs) api ->
    (forall c, In c sent -> exists m, In m msgs /\ m_name m = c /\ m_source m <> SRC_SERVER) /\
    (forall c, In c subs -> exists m, In m msgs /\ m_name m = c /\ m_source m <> SRC_CLIENT).
Proof.
  unfold check_direction. intro E. apply andb_true_iff in E. destruct E as [E0 E].
  split; [apply (nodupb_NoDup _ String.eqb_eq); assumption|].
  rewrite forallb_forall in E. intros ep sent subs Hin. specialize (E _ Hin). cbn in E.
  apply andb_true_iff in E. destruct E as [E1 E2]. rewrite forallb_forall in E1, E2.
  split; intros c Hc; apply src_ok_sound; [apply E1|apply E2]; exact Hc.
Qed.
