(* Two connections of one process (Proofs/Product.v instantiated with Model/Conn.v): each connection of a pair runs exactly
   its own labels, and the run-level theorems of single connections hold for each of them. *)
From Coq Require Import NArith ZArith List Bool.
From Verif Require Import Model.Conn Proofs.ConnCore Proofs.ConnRun Proofs.ConnReason Proofs.ConnReasonRun Proofs.Product.
Import ListNotations.

Definition pair_label := plabel label label.
Definition pair_step := pstep conn conn label label (list obs) (list obs) step step.
Definition pair_run := prun conn conn label label (list obs) (list obs) step step.
Definition mine := labelsA label label.
Definition theirs := labelsB label label.
Definition my_obs := obsA (list obs) (list obs).
Definition their_obs := obsB (list obs) (list obs).

Lemma run_is_runA : forall ls c, run c ls = runA conn label (list obs) step c ls.
Proof.
  induction ls as [|l r IH]; intro c; cbn; [reflexivity|].
  destruct (step c l) as [[c1 o]|]; [|reflexivity]. rewrite IH. reflexivity.
Qed.

(* runB is the recursion of runA written for the second component: on the same machine the two are convertible *)
Lemma run_is_runB : forall ls c, run c ls = runB conn label (list obs) step c ls.
Proof. exact run_is_runA. Qed.

Theorem pair_projects : forall ls a b a' b' os,
  pair_run (a, b) ls = Some ((a', b'), os) ->
  run a (mine ls) = Some (a', my_obs os) /\ run b (theirs ls) = Some (b', their_obs os).
Proof.
  intros ls a b a' b' os H. rewrite run_is_runA, run_is_runB.
  exact (product_projects _ _ _ _ _ _ step step ls a b a' b' os H).
Qed.

(* one connection never disables a step of the other *)
Theorem pair_enabled : forall ls a b a' b' oa ob,
  run a (mine ls) = Some (a', oa) -> run b (theirs ls) = Some (b', ob) ->
  exists os, pair_run (a, b) ls = Some ((a', b'), os) /\ my_obs os = oa /\ their_obs os = ob.
Proof.
  intros ls a b a' b' oa ob HA HB. rewrite run_is_runA in HA. rewrite run_is_runB in HB.
  exact (product_enabled _ _ _ _ _ _ step step ls a b a' b' oa ob HA HB).
Qed.

(* C07 for sibling sessions: the stop callback of a connection reports a graceful disconnect only if one was initiated ON THAT
   CONNECTION - a force_disconnect / disconnect call on it or a DisconnectRequest in ITS stream; what its sibling does or
   receives does not count *)
Theorem sibling_true_only_if_initiated_here : forall n e ka scr n2 e2 ka2 scr2 ls a b os,
  pair_run (init n e ka scr, init n2 e2 ka2 scr2) ls = Some ((a, b), os) ->
  In true (stop_calls a) -> exists l, In l (mine ls) /\ initiates l.
Proof.
  intros n e ka scr n2 e2 ka2 scr2 ls a b os H Ht.
  destruct (pair_projects _ _ _ _ _ _ H) as [HA _].
  exact (true_only_if_initiated n e ka scr (mine ls) a (my_obs os) HA Ht).
Qed.

(* the labels of two connections in turns, one each, then what is left of the longer list; the examples C07_siblings and
   C12_neighbour_answer establish two connections this way *)
Fixpoint interleave (xs ys : list label) : list pair_label :=
  match xs, ys with
  | x :: xr, y :: yr => PA label label x :: PB label label y :: interleave xr yr
  | xs, [] => map (PA label label) xs
  | [], ys => map (PB label label) ys
  end.
