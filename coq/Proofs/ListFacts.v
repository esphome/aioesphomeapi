(* Facts about lists that the standard library lacks. *)
From Coq Require Import List PeanoNat.
Import ListNotations.

Lemma app_eq_app_cases {A} (p q a b : list A) :
  p ++ q = a ++ b ->
  (exists r, r <> [] /\ a = p ++ r /\ q = r ++ b) \/ (exists r, p = a ++ r /\ b = r ++ q).
Proof.
  intro E. destruct (app_eq_app _ _ _ _ E) as [r [[-> ->]|[-> ->]]].
  - right. exists r. split; reflexivity.
  - destruct r as [|x r].
    + right. exists []. rewrite !app_nil_r. split; reflexivity.
    + left. exists (x :: r). split; [discriminate|]. split; reflexivity.
Qed.

Lemma firstn_app_le {A} n (l1 l2 : list A) : n <= length l1 -> firstn n (l1 ++ l2) = firstn n l1.
Proof.
  intro H. rewrite firstn_app, (proj2 (Nat.sub_0_le _ _) H). apply app_nil_r.
Qed.

Lemma skipn_app_le {A} n (l1 l2 : list A) : n <= length l1 -> skipn n (l1 ++ l2) = skipn n l1 ++ l2.
Proof.
  intro H. rewrite skipn_app, (proj2 (Nat.sub_0_le _ _) H). reflexivity.
Qed.

Lemma firstn_app_exact {A} (l1 l2 : list A) : firstn (length l1) (l1 ++ l2) = l1.
Proof. rewrite firstn_app_le, firstn_all by apply Nat.le_refl. reflexivity. Qed.

Lemma skipn_app_exact {A} (l1 l2 : list A) : skipn (length l1) (l1 ++ l2) = l2.
Proof. rewrite skipn_app_le, skipn_all by apply Nat.le_refl. reflexivity. Qed.

Lemma ltb_length_app_le {A} n (l1 l2 : list A) : n <= length l1 -> Nat.ltb (length (l1 ++ l2)) n = false.
Proof. intro H. apply Nat.ltb_ge. rewrite app_length. exact (Nat.le_trans _ _ _ H (Nat.le_add_r _ _)). Qed.

Lemma ltb_length_app {A} (l1 l2 : list A) : Nat.ltb (length (l1 ++ l2)) (length l1) = false.
Proof. apply ltb_length_app_le, Nat.le_refl. Qed.

Lemma skipn_nth_cons {A} (l : list A) : forall n x, nth_error l n = Some x -> skipn n l = x :: skipn (S n) l.
Proof.
  induction l as [|a l IH]; intros n x H; destruct n; try discriminate.
  - injection H as ->. reflexivity.
  - cbn [nth_error] in H. cbn [skipn]. rewrite (IH n x H). reflexivity.
Qed.

Lemma nth_error_snoc {A} (l : list A) a i x : nth_error (l ++ [a]) i = Some x -> nth_error l i = Some x \/ i = length l /\ x = a.
Proof.
  revert i. induction l as [|y l IH]; intros [|i] Q; cbn in *; auto.
  - injection Q as <-. auto.
  - destruct i; discriminate.
  - destruct (IH i Q) as [|[-> ->]]; auto.
Qed.

Lemma NoDup_app_r {A} (l l' : list A) : NoDup (l ++ l') -> NoDup l'.
Proof. induction l as [|a l IH]; [trivial|]. intro H. apply NoDup_cons_iff in H. apply IH, H. Qed.

Lemma NoDup_snoc {A} (l : list A) x : NoDup l -> ~ In x l -> NoDup (l ++ [x]).
Proof. intros Hl Hx. apply (NoDup_Add (Add_app x l [])). rewrite app_nil_r. split; assumption. Qed.

Lemma filter_idem {A} (f : A -> bool) l : filter f (filter f l) = filter f l.
Proof. induction l as [|a l IH]; cbn; [reflexivity|]. destruct (f a) eqn:E; cbn; rewrite ?E, IH; reflexivity. Qed.

Lemma find_app {A} (p : A -> bool) l1 l2 :
  find p (l1 ++ l2) = match find p l1 with Some x => Some x | None => find p l2 end.
Proof. induction l1 as [|y l1 IH]; cbn; [reflexivity|]. destruct (p y); [reflexivity|exact IH]. Qed.

Lemma find_all_false {A} (p : A -> bool) l : (forall x, In x l -> p x = false) -> find p l = None.
Proof.
  intro H. destruct (find p l) as [x|] eqn:E; [|reflexivity].
  apply find_some in E as [Hx Hp]. rewrite (H x Hx) in Hp. discriminate Hp.
Qed.

Lemma existsb_eqb_In {A} (eqb : A -> A -> bool) (eqb_eq : forall x y, eqb x y = true <-> x = y) x l :
  existsb (eqb x) l = true <-> In x l.
Proof.
  rewrite existsb_exists. split.
  - intros (y & Hy & E). apply eqb_eq in E. subst y. exact Hy.
  - intro Hin. exists x. split; [exact Hin|apply eqb_eq; reflexivity].
Qed.
