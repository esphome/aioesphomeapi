(* For C09 (bounded time): no await is unguarded.  In every reachable state each coroutine of the connection that is suspended
   either can be resumed right now, or waits under an armed timer - which time cannot pass (advance_respects_deadlines) and
   whose firing makes it resumable.  GA is the invariant, M the relation "nothing a waiting task relies on was taken away":
   every closing and dispatch move of the model (Proofs/ConnMoves.v) is in it.  A step of a task's own coroutine keeps it
   for every other task (Mx) and re-establishes the guard of that task where it suspends again (XG). *)
From Coq Require Import NArith ZArith List Bool Lia PeanoNat.
From RecordUpdate Require Import RecordSet.
From Verif Require Import Generated.GenConstants Model.Conn Proofs.ConnMoves Proofs.ConnCalls Proofs.ConnErrors Proofs.ConnReason Proofs.ConnOutcome Proofs.ConnCancel.
Import ListNotations RecordSetNotations.
Open Scope Z_scope.
Open Scope list_scope.

Definition call_guard (c : conn) (k : task) (cid : nat) : Prop :=
  exists kk, get_call c cid = Some kk /\ (c_timer kk <> None \/ cfut_done (c_fut kk) = true \/ must_cancel k = true).

(* the guard of task t; False at a program point that is not of t's coroutine *)
Definition tguard (c : conn) (t : tid) : Prop :=
  let k := get_task c t in
  match t, pc k with
  | _, PNone | _, PDone _ => True
  | TStart, PS_Resolve | TStart, PS_Tcp _ => conn_timer c <> None \/ must_cancel k = true \/ do_connect c <> EPending
  | TFinish, PF_Create => True          (* connection_made is scheduled by the transport itself: LMadeWaiter is enabled *)
  | TFinish, PF_Ready => hs_timer c <> None \/ must_cancel k = true \/ ready c <> RPending
  | TFinish, PF_Hello cid | TDisc, PD_Resp cid | TCall _, PC_Wait cid => call_guard c k cid
  | TDisc, PD_Wait => disc_timer c <> None \/ must_cancel k = true \/ disc_wait_done c = true
  | _, _ => False
  end.
Definition GA (c : conn) : Prop := forall t, tguard c t.

(* tmono k k': the record of a task that does not run *)
Definition tmono (k k' : task) : Prop := pc k' = pc k /\ (must_cancel k = true -> must_cancel k' = true).
(* crel k k': a call as the task that awaits it sees it: the timer may go only once the future is done *)
Definition crel (k k' : call) : Prop :=
  c_id k' = c_id k /\ c_owner k' = c_owner k /\ (c_timer k' = c_timer k \/ cfut_done (c_fut k') = true) /\
  (cfut_done (c_fut k) = true -> cfut_done (c_fut k') = true).

(* M c c': from c to c' nothing a waiting task relies on was taken away *)
Record M (c c' : conn) : Prop := {
  m_t : forall t, tmono (get_task c t) (get_task c' t);
  m_conn : conn_timer c' = conn_timer c;
  m_hs : hs_timer c' = hs_timer c;
  m_disc : disc_timer c' = disc_timer c;
  m_dw : disc_wait_done c = true -> disc_wait_done c' = true;
  m_dc : do_connect c <> EPending -> do_connect c' <> EPending;
  m_rd : ready c <> RPending -> ready c' <> RPending;
  m_calls : Forall2 crel (calls c) (calls c') }.

(* Mx skip c c': M for the tasks outside skip.  skip holds of the task that takes its own step: its record, the timer and the
   future of its phase, and the calls it owns (crelx) may change in any way *)
Definition crelx (skip : tid -> Prop) (k k' : call) : Prop :=
  c_owner k' = c_owner k /\ (skip (c_owner k) \/ crel k k').
Record Mx (skip : tid -> Prop) (c c' : conn) : Prop := {
  x_t : forall t, ~ skip t -> tmono (get_task c t) (get_task c' t);
  x_s : ~ skip TStart -> conn_timer c' = conn_timer c /\ (do_connect c <> EPending -> do_connect c' <> EPending);
  x_f : ~ skip TFinish -> hs_timer c' = hs_timer c /\ (ready c <> RPending -> ready c' <> RPending);
  x_d : ~ skip TDisc -> disc_timer c' = disc_timer c /\ (disc_wait_done c = true -> disc_wait_done c' = true);
  x_calls : forall cid k, get_call c cid = Some k -> exists k', get_call c' cid = Some k' /\ crelx skip k k' }.

Lemma tmono_refl k : tmono k k.
Proof. split; auto. Qed.
Lemma tmono_trans a b c : tmono a b -> tmono b c -> tmono a c.
Proof. intros [A1 A2] [B1 B2]. split; [congruence|auto]. Qed.
Lemma crel_refl k : crel k k.
Proof. unfold crel. auto. Qed.
Lemma crel_trans a b c : crel a b -> crel b c -> crel a c.
Proof.
  intros (A1 & A0 & A2 & A3) (B1 & B0 & B2 & B3). split; [congruence|]. split; [congruence|]. split; [|auto].
  destruct B2 as [B2|B2]; [|right; exact B2]. destruct A2 as [A2|A2]; [left; congruence|right; auto].
Qed.
Lemma crel_id k k' : crel k k' -> c_id k' = c_id k.
Proof. intro H. apply H. Qed.

Lemma M_refl c : M c c.
Proof. constructor; auto using tmono_refl. apply F2_refl, crel_refl. Qed.
Lemma M_trans a b c : M a b -> M b c -> M a c.
Proof.
  intros [A1 A5 A6 A7 A8 A9 A10 A11] [B1 B5 B6 B7 B8 B9 B10 B11].
  constructor; try congruence; eauto.
  - intros t. eapply tmono_trans; eauto.
  - eapply F2_trans; [exact crel_trans|eassumption|eassumption].
Qed.

(* gv c: the components of the state that M speaks of *)
Definition gv (c : conn) := (t_start c, t_finish c, t_disc c, call_tasks c, conn_timer c, hs_timer c, disc_timer c,
                             disc_wait_done c, do_connect c, ready c, calls c).
Lemma get_task_gv c c' t : gv c' = gv c -> get_task c' t = get_task c t.
Proof.
  unfold gv. intro E. injection E as E1 E2 E3 E4 _ _ _ _ _ _ _. destruct t; cbn [get_task]; try assumption. rewrite E4. reflexivity.
Qed.
Lemma gv_calls c c' : gv c' = gv c -> calls c' = calls c.
Proof. intro E. exact (f_equal snd E). Qed.

Lemma M_intro c c' :
  (t_start c', t_finish c', t_disc c', call_tasks c', conn_timer c', hs_timer c', disc_timer c') =
  (t_start c, t_finish c, t_disc c, call_tasks c, conn_timer c, hs_timer c, disc_timer c) ->
  (disc_wait_done c = true -> disc_wait_done c' = true) -> (do_connect c <> EPending -> do_connect c' <> EPending) ->
  (ready c <> RPending -> ready c' <> RPending) -> Forall2 crel (calls c) (calls c') -> M c c'.
Proof.
  intros E A B D F. injection E as E1 E2 E3 E4 E5 E6 E7. constructor; try assumption.
  intro t. destruct t; cbn [get_task]; rewrite ?E1, ?E2, ?E3, ?E4; apply tmono_refl.
Qed.
Lemma M_gv c c' : gv c' = gv c -> M c c'.
Proof.
  unfold gv. intro E. injection E as E1 E2 E3 E4 E5 E6 E7 E8 E9 E10 E11. apply M_intro; try congruence.
  rewrite E11. apply F2_refl, crel_refl.
Qed.

Lemma M_Mx skip c c' : M c c' -> Mx skip c c'.
Proof.
  intros [A1 A5 A6 A7 A8 A9 A10 A11]. constructor; auto.
  intros cid k G. destruct (F2_find crel crel_id _ _ cid k A11 G) as (k' & G' & F). exists k'. split; [exact G'|].
  split; [apply F|right; exact F].
Qed.
Lemma Mx_refl skip c : Mx skip c c.
Proof. apply M_Mx, M_refl. Qed.
Lemma Mx_trans skip a b c : Mx skip a b -> Mx skip b c -> Mx skip a c.
Proof.
  intros [A1 A2 A3 A4 A5] [B1 B2 B3 B4 B5]. constructor.
  - intros t Hs. eapply tmono_trans; eauto.
  - intro Hs. destruct (A2 Hs) as [X1 X2]. destruct (B2 Hs) as [Y1 Y2]. split; [congruence|auto].
  - intro Hs. destruct (A3 Hs) as [X1 X2]. destruct (B3 Hs) as [Y1 Y2]. split; [congruence|auto].
  - intro Hs. destruct (A4 Hs) as [X1 X2]. destruct (B4 Hs) as [Y1 Y2]. split; [congruence|auto].
  - intros cid k G. destruct (A5 cid k G) as (k1 & G1 & O1 & R1). destruct (B5 cid k1 G1) as (k2 & G2 & O2 & R2).
    exists k2. split; [exact G2|]. split; [congruence|].
    destruct R1 as [R1|R1]; [left; exact R1|]. destruct R2 as [R2|R2]; [left; rewrite <- O1; exact R2|].
    right. eapply crel_trans; eassumption.
Qed.

Lemma awaited_own c t cid kk : CI c -> awaited (pc (get_task c t)) = Some cid -> get_call c cid = Some kk -> c_owner kk = t.
Proof.
  intros HC Ha G. destruct (tid_dec t TStart) as [->|Hn]; [cbn [get_task] in Ha; rewrite (i_st _ _ HC) in Ha; discriminate|].
  destruct (i_aw _ _ HC t cid Hn (fun F => F) Ha) as (k2 & G2 & O2). rewrite G in G2. apply some_inj in G2. subst k2. exact O2.
Qed.
Lemma awaited_call_id c x cid : CI c -> awaited (pc (get_task c (TCall x))) = Some cid -> cid = x.
Proof.
  intros HC Ha. destruct (i_aw _ _ HC (TCall x) cid ltac:(discriminate) (fun F => F) Ha) as (k & G & O).
  destruct (get_call_in _ _ _ G) as [Hin <-]. symmetry. exact (i_own _ _ HC k x Hin O).
Qed.

Lemma tguard_Mx skip c c' t : Mx skip c c' -> CI c -> ~ skip t -> tguard c t -> tguard c' t.
Proof.
  intros HM HC Hs G. pose proof HM as [A1 A2 A3 A4 A5]. destruct (A1 t Hs) as [Ep Em]. unfold tguard in *. rewrite Ep.
  assert (CG : forall cid, awaited (pc (get_task c t)) = Some cid -> call_guard c (get_task c t) cid -> call_guard c' (get_task c' t) cid).
  { intros cid Ha (kk & Gk & Hk).
    destruct (A5 cid kk Gk) as (kk' & Gk' & _ & [R|R]); [rewrite (awaited_own c t cid kk HC Ha Gk) in R; contradiction|].
    exists kk'. split; [exact Gk'|]. destruct R as (_ & _ & F2 & F3). destruct Hk as [Hk|[Hk|Hk]].
    - destruct F2 as [F2|F2]; [left; congruence|right; left; exact F2].
    - right. left. auto.
    - right. right. auto. }
  destruct t; destruct (pc (get_task c _)) eqn:Epc; try exact I; try contradiction; try (apply CG; [reflexivity|exact G]).
  - (* TStart at PS_Resolve *) destruct (A2 Hs) as [X1 X2]. rewrite X1. destruct G as [G|[G|G]]; auto.
  - (* TStart at PS_Tcp *) destruct (A2 Hs) as [X1 X2]. rewrite X1. destruct G as [G|[G|G]]; auto.
  - (* TFinish at PF_Ready *) destruct (A3 Hs) as [X1 X2]. rewrite X1. destruct G as [G|[G|G]]; auto.
  - (* TDisc at PD_Wait *) destruct (A4 Hs) as [X1 X2]. rewrite X1. destruct G as [G|[G|G]]; auto.
Qed.
Lemma GA_M c c' : M c c' -> CI c -> GA c -> GA c'.
Proof. intros HM HC G t. eapply (tguard_Mx (fun _ => False)); [apply M_Mx; exact HM|exact HC|tauto|apply G]. Qed.
Lemma GA_Mx c c' t : Mx (eq t) c c' -> CI c -> GA c -> tguard c' t -> GA c'.
Proof.
  intros HM HC G Ht t'. destruct (tid_dec t t') as [<-|Hn]; [exact Ht|].
  eapply tguard_Mx; [exact HM|exact HC|exact Hn|apply G].
Qed.

Lemma crel_fail_waiter e k : crel k (fail_waiter e k).
Proof. unfold fail_waiter. destruct (c_fut k) eqn:E; unfold crel; cbn; rewrite ?E; auto. Qed.

Lemma M_ready c r : ready c = RPending \/ r <> RPending -> M c (c <| ready := r |>).
Proof.
  intro H. apply M_intro; try reflexivity; auto; [|apply F2_refl, crel_refl].
  intro Q. destruct H as [H|H]; [contradiction|exact H].
Qed.

Lemma M_close c o c' : close_atom c o c' -> M c c'.
Proof.
  destruct 1; try (apply M_gv; reflexivity).
  - (* AReady *) apply M_ready. left. assumption.
  - (* ACloseState: the futures of the waiters fail *)
    apply M_intro; [reflexivity|exact (fun H => H)..|].
    change (calls (close_state c)) with (map (fun k => if existsb (Nat.eqb (c_id k)) (waiters c) then fail_waiter (waiter_exc (fatal c)) k else k) (calls c)).
    apply F2_map. intro k. destruct (existsb _ _); [apply crel_fail_waiter|apply crel_refl].
Qed.
Lemma M_cpath c o c' : path close_atom c o c' -> M c c'.
Proof. apply path_rel; [exact M_refl|exact M_trans|exact M_close]. Qed.

Lemma M_cleanup c : M c (fst (cleanup c)).
Proof. exact (M_cpath _ _ _ (path_cleanup c)). Qed.
Lemma M_send_messages c tys : M c (fst (fst (send_messages c tys))).
Proof. exact (M_cpath _ _ _ (path_send_messages c tys)). Qed.

Lemma gv_add c ty h : gv (add_handler c ty h) = gv c.
Proof. unfold add_handler. destruct (existsb _ _); reflexivity. Qed.
Lemma gv_fold_add l h : forall c, gv (fold_left (fun a ty => add_handler a ty h) l c) = gv c.
Proof. apply (fold_left_view gv). intros a ty. apply gv_add. Qed.
Lemma gv_fold_remove l h : forall c, gv (fold_left (fun a ty => remove_handler a ty h) l c) = gv c.
Proof. apply (fold_left_view gv). reflexivity. Qed.
Lemma gv_internal_handlers c : gv (internal_handlers c) = gv c.
Proof. unfold internal_handlers. rewrite !gv_add. reflexivity. Qed.

Lemma M_upd_call c cid g : (forall k, crel k (g k)) -> M c (upd_call c cid g).
Proof.
  intro H. apply M_intro; try reflexivity; auto. exact (F2_upd_call crel crel_refl c cid g H).
Qed.
(* ids are unique, so a frame reaches the record of one call only *)
Lemma M_data c o c' : data_atom c o c' -> uniq c -> M c c'.
Proof.
  destruct 1 as [c o c' H| |c cid k m Hk Hf|c [ty u|ty u]| |]; intro U; try (apply M_gv; reflexivity).
  - (* DClose *) exact (M_close _ _ _ H).
  - (* DCallMsg *) apply M_intro; try reflexivity; auto. refine (F2_upd_const crel crel_refl (calls c) cid k _ U Hk _).
    unfold crel, recv. destruct (eval_pred (c_stop k) m), (eval_pred (c_append k) m); cbn; rewrite ?Hf; auto.
  - (* DAction, a subscription *) apply M_gv, gv_add.
Qed.
Lemma M_dpath c o c' : path data_atom c o c' -> uniq c -> M c c'.
Proof.
  apply (path_rel_under _ uniq M M_refl M_trans); [|exact M_data].
  intros x ox x' A U. exact (uniq_F2 crel _ _ crel_id (m_calls _ _ (M_data _ _ _ A U)) U).
Qed.

Lemma set_task_fields c t k' :
  conn_timer (set_task c t k') = conn_timer c /\ hs_timer (set_task c t k') = hs_timer c /\ disc_timer (set_task c t k') = disc_timer c /\
  disc_wait_done (set_task c t k') = disc_wait_done c /\ do_connect (set_task c t k') = do_connect c /\ ready (set_task c t k') = ready c /\
  calls (set_task c t k') = calls c.
Proof. destruct t; cbn; auto 10. Qed.

Lemma calls_refl_x skip c c' : calls c' = calls c ->
  forall cid k, get_call c cid = Some k -> exists k', get_call c' cid = Some k' /\ crelx skip k k'.
Proof. intros E cid k G. exists k. unfold get_call in *. rewrite E. split; [exact G|]. split; [reflexivity|right; apply crel_refl]. Qed.

Lemma M_set_task_mono c t k' : exists_task c t -> tmono (get_task c t) k' -> M c (set_task c t k').
Proof.
  intros Hex Hm. destruct (set_task_facts c t k' Hex) as (Hself & Hoth & _).
  destruct (set_task_fields c t k') as (F1 & F2 & F3 & F4 & F5 & F6 & F7).
  constructor; try congruence.
  - intro t'. destruct (tid_dec t' t) as [->|Hn]; [rewrite Hself; exact Hm|rewrite (Hoth t' Hn); apply tmono_refl].
  - rewrite F7. apply F2_refl, crel_refl.
Qed.
Lemma Mx_set_task c t k' : exists_task c t -> Mx (eq t) c (set_task c t k').
Proof.
  intros Hex. destruct (set_task_facts c t k' Hex) as (Hself & Hoth & _).
  destruct (set_task_fields c t k') as (F1 & F2 & F3 & F4 & F5 & F6 & F7).
  constructor; try (intros _; split; congruence).
  - intros t' Hn. rewrite (Hoth t'); [apply tmono_refl|congruence].
  - apply calls_refl_x, F7.
Qed.

Lemma Mx_take_cancel c t : exists_task c t -> Mx (eq t) c (fst (take_cancel c t)).
Proof. intro Hex. unfold take_cancel. destruct (must_cancel _); cbn [fst]; [apply Mx_set_task; exact Hex|apply Mx_refl]. Qed.
Lemma M_timeout_exit c t e : exists_task c t -> M c (fst (timeout_exit c t e)).
Proof.
  intro Hex. unfold timeout_exit. destruct (expiring _); [|apply M_refl].
  destruct e; cbn [fst]; try (apply M_set_task_mono; [exact Hex|split; [reflexivity|cbn; auto]]).
  destruct (Nat.eqb _ _); cbn [fst]; apply M_set_task_mono; try exact Hex; (split; [reflexivity|cbn; auto]).
Qed.
Lemma M_interrupt_exit c t e : exists_task c t -> M c (fst (interrupt_exit c t e)).
Proof.
  intro Hex. unfold interrupt_exit. destruct (interrupted _); [|apply M_refl].
  destruct e; cbn [fst]; try apply M_refl.
  destruct (Nat.eqb _ _); cbn [fst]; apply M_set_task_mono; try exact Hex; (split; [reflexivity|cbn; auto]).
Qed.

(* Task.cancel(): what the task awaits becomes done *)
Lemma M_cancel_awaited c t k : M c (fst (cancel_awaited c t k)).
Proof.
  assert (Conn : M c (fst (let '(f, b) := cancel_efut (do_connect c) in (c <| do_connect := f |>, b)))).
  { destruct (do_connect c) eqn:Ed; cbn [cancel_efut fst]; apply M_intro; try reflexivity; auto; try (apply F2_refl, crel_refl).
    all: intros _ Q; discriminate Q. }
  assert (Call : forall cid, M c (fst (match get_call c cid with
                                       | Some kk => match c_fut kk with
                                                    | CPending => (upd_call c cid (fun x => x <| c_fut := CCancelled |>), true)
                                                    | _ => (c, false) end
                                       | None => (c, false) end))).
  { intro cid. destruct (get_call c cid) as [kk|]; [|apply M_refl]. destruct (c_fut kk); try apply M_refl.
    apply M_upd_call. intro x. unfold crel. cbn. auto. }
  unfold cancel_awaited. destruct (pc k) as [| |g| | |cid| |cid|cid|r]; try apply M_refl.
  - (* PS_Resolve *) exact Conn.
  - (* PS_Tcp *) exact Conn.
  - (* PF_Create: no clause of M speaks of the future of connection_made *)
    destruct (cancel_efut (made_waiter c)). apply M_gv. reflexivity.
  - (* PF_Ready *) destruct (ready c) eqn:Er; try apply M_refl. apply M_ready. left. exact Er.
  - (* PF_Hello *) apply Call.
  - (* PD_Wait *) destruct (disc_wait_done c); [apply M_refl|]. apply M_intro; try reflexivity; auto. apply F2_refl, crel_refl.
  - (* PD_Resp *) apply Call.
  - (* PC_Wait *) apply Call.
Qed.
Lemma M_cancel_task c t : M c (cancel_task c t).
Proof.
  unfold cancel_task. destruct (task_running (get_task c t)) eqn:Er; cbn [negb]; [|apply M_refl].
  match goal with |- context [cancel_awaited c t ?k1] =>
    pose proof (M_cancel_awaited c t k1) as H; pose proof (get_task_cancel_awaited c t k1 t) as HT;
    destruct (cancel_awaited c t k1) as [c1 d] end.
  cbn [fst] in H, HT.
  assert (Hex1 : exists_task c1 t) by (apply task_running_exists; rewrite HT; exact Er).
  destruct d; (eapply M_trans; [exact H|]); apply M_set_task_mono; try exact Hex1; rewrite HT.
  - (* the cancel reached what was awaited *) split; cbn; [reflexivity|]. destruct (pc (get_task c t)); auto.
  - (* nothing pending to cancel: the flag goes up *) split; cbn; [reflexivity|]. auto.
Qed.

(* others t c: what the tasks other than t rely on *)
Definition others (t : tid) (c : conn) :=
  (match t with TStart => None | _ => Some (t_start c, conn_timer c, do_connect c) end,
   match t with TFinish => None | _ => Some (t_finish c, hs_timer c, ready c) end,
   match t with TDisc => None | _ => Some (t_disc c, disc_timer c, disc_wait_done c) end,
   call_tasks c, calls c).
Lemma Mx_others t c c' : others t c' = others t c -> Mx (eq t) c c'.
Proof.
  unfold others. intro E. injection E as E1 E2 E3 E4 E5.
  assert (S : t <> TStart -> t_start c' = t_start c /\ conn_timer c' = conn_timer c /\ do_connect c' = do_connect c)
    by (intro H; destruct t; try (contradiction H; reflexivity); injection E1; auto).
  assert (F : t <> TFinish -> t_finish c' = t_finish c /\ hs_timer c' = hs_timer c /\ ready c' = ready c)
    by (intro H; destruct t; try (contradiction H; reflexivity); injection E2; auto).
  assert (D : t <> TDisc -> t_disc c' = t_disc c /\ disc_timer c' = disc_timer c /\ disc_wait_done c' = disc_wait_done c)
    by (intro H; destruct t; try (contradiction H; reflexivity); injection E3; auto).
  constructor.
  - intros [| | |x] Hn; cbn [get_task]; [rewrite (proj1 (S Hn))|rewrite (proj1 (F Hn))|rewrite (proj1 (D Hn))|rewrite E4]; apply tmono_refl.
  - intro Hn. destruct (S Hn) as (_ & A & B). rewrite A, B. auto.
  - intro Hn. destruct (F Hn) as (_ & A & B). rewrite A, B. auto.
  - intro Hn. destruct (D Hn) as (_ & A & B). rewrite A, B. auto.
  - apply calls_refl_x, E5.
Qed.

(* XG t c c': one step of task t's coroutine, from c where it is resumed to c' where it suspends again or ends: the other tasks
   keep what they rely on, and t is guarded in c'.
   The guard of t does not go along a path move by move, as M does for the labels of keeps_all below: a resumed coroutine first
   takes away what stood behind the await it left, while its record still names that await (take_cancel, the timer of the
   phase, call_finally), and only its last moves write the next program point and arm what stands behind it
   (start_tcp_attempt, call_begin).  So each function the coroutines are made of is walked once: every part before the last
   gives Mx only (XG_after), the last part gives the guard. *)
Definition XG (t : tid) (c c' : conn) : Prop := Mx (eq t) c c' /\ tguard c' t.

Lemma XG_after {t a} b {c} : Mx (eq t) a b -> XG t b c -> XG t a c.
Proof. intros H [A B]. split; [eapply Mx_trans; eassumption|exact B]. Qed.

Lemma tguard_done c t r : exists_task c t -> tguard (fst (finish_task c t r)) t.
Proof.
  intro Hex. unfold finish_task. cbn [fst]. unfold tguard.
  destruct (set_task_facts c t (get_task c t <| pc := PDone r |>) Hex) as (Hself & _). rewrite Hself. cbn. destruct t; exact I.
Qed.
Lemma XG_done c t r : exists_task c t -> XG t c (fst (finish_task c t r)).
Proof. intro Hex. split; [apply Mx_set_task|apply tguard_done]; exact Hex. Qed.

(* the common tail of a failing connect phase and of disconnect(), the term of ConnMoves.path_cleanup_finish; XG is not a
   relation of paths, so its two parts are composed here *)
Lemma cleanup_finish_X t c (mk : conn -> tres) (post : conn -> conn) : (forall x, exists_task x t) -> (forall x, M x (post x)) ->
  XG t c (fst (let '(c2, o) := cleanup c in let '(c4, o2) := finish_task (post c2) t (mk c2) in (c4, o ++ o2))).
Proof.
  intros Hex Hp. pose proof (M_cleanup c) as H1. destruct (cleanup c) as [c2 o]. cbn [fst] in H1.
  pose proof (XG_done (post c2) t (mk c2) (Hex _)) as H2. destruct (finish_task (post c2) t (mk c2)) as [c4 o2]. cbn [fst] in *.
  apply (XG_after (post c2)); [apply M_Mx; eapply M_trans; [exact H1|apply Hp]|exact H2].
Qed.

Lemma start_fail_X c e : XG TStart c (fst (start_fail c e)).
Proof.
  unfold start_fail.
  pose proof (M_interrupt_exit c TStart e I) as H0. destruct (interrupt_exit c TStart e) as [c0 e1]. cbn [fst] in H0.
  apply (XG_after c0 (M_Mx _ _ _ H0)).
  apply (XG_after (c0 <| intr_start := IExited |> <| conn_timer := None |>)); [apply Mx_others; reflexivity|].
  exact (cleanup_finish_X TStart _ (fun c2 => TRaise (wrap_fatal c2 e1)) set_start_future (fun _ => I)
           (fun x => M_cpath _ _ _ (path_set_start_future x))).
Qed.
Lemma start_tcp_attempt_X c g : XG TStart c (start_tcp_attempt c g).
Proof.
  unfold start_tcp_attempt. split.
  - eapply Mx_trans; [|apply Mx_set_task; exact I]. apply Mx_others. reflexivity.
  - unfold tguard. cbn. left. discriminate.
Qed.
Lemma start_success_X c : XG TStart c (fst (start_success c)).
Proof.
  unfold start_success.
  set (c2 := set_start_future (c <| socket := true |> <| sock_obj := false |> <| intr_start := IExited |> <| conn_timer := None |>)).
  apply (XG_after c2); [eapply Mx_trans; [|apply M_Mx, (M_cpath _ _ _ (path_set_start_future _))]; apply Mx_others; reflexivity|].
  assert (Open : XG TStart c2 (fst (finish_task (set_state c2 SockOpen) TStart TOk)))
    by (apply (XG_after (set_state c2 SockOpen)); [apply M_Mx, M_gv; reflexivity|apply XG_done; exact I]).
  destruct (cs c2); try exact Open.
  (* Closed: the connection was closed while the socket was being opened *)
  exact (cleanup_finish_X TStart c2 (fun c3 => TRaise (wrap_fatal c3 Interrupted)) (fun x => x) (fun _ => I) M_refl).
Qed.

Lemma wake_start_X c c' o : wake_start c = Some (c', o) -> XG TStart c c'.
Proof.
  unfold wake_start. intro E.
  assert (T : forall x, Mx (eq TStart) x (x <| conn_timer := None |>)) by (intro x; apply Mx_others; reflexivity).
  destruct (pc (get_task c TStart)) as [| |g| | | | | | |]; try discriminate;
    (destruct (_ || _); [|discriminate]);
    pose proof (Mx_take_cancel c TStart I) as H1; destruct (take_cancel c TStart) as [c1 mc]; cbn [fst] in H1;
    apply (XG_after c1 H1);
    (match type of E with (match ?d with _ => _ end) = _ => destruct d as [|e] end;
     [|pose proof (M_timeout_exit (c1 <| conn_timer := None |>) TStart e I) as H2;
       destruct (timeout_exit (c1 <| conn_timer := None |>) TStart e) as [c2 e1]; cbn [fst] in H2;
       apply (XG_after _ (T c1)), (XG_after _ (M_Mx _ _ _ H2))]).
  - (* resolved: the first TCP attempt *)
    apply some_pair_inv in E. destruct E as [<- _]. apply (XG_after _ (T c1)), start_tcp_attempt_X.
  - (* resolving failed, or was cancelled *) rewrite (some_pair_fst _ _ _ E). apply start_fail_X.
  - (* connected *)
    rewrite (some_pair_fst _ _ _ E). apply (XG_after (c1 <| sock_obj := true |>)); [apply M_Mx, M_gv; reflexivity|apply start_success_X].
  - (* the attempt failed: the next address group, if there is one *)
    destruct (is_oserror e1); [destruct g as [|[|g']]|]; try (rewrite (some_pair_fst _ _ _ E); apply start_fail_X).
    apply some_pair_inv in E. destruct E as [<- _]. apply start_tcp_attempt_X.
Qed.

Lemma Mx_skip (skip : tid -> Prop) c c' : Mx (fun _ => False) c c' -> Mx skip c c'.
Proof.
  intros [A1 A2 A3 A4 A5]. constructor; try (intros _; auto).
  - intros t _. apply A1. exact (fun F => F).
  - intros cid k G. destruct (A5 cid k G) as (k' & G' & O & [[]|R]). exists k'. split; [exact G'|]. split; [exact O|right; exact R].
Qed.

Lemma call_begin_X c owner send types ap st tmo : F1 c ->
  let r := call_begin c owner send types ap st tmo in
  Mx (fun _ => False) c (fst (fst (fst r))) /\
  (snd (fst r) = None -> snd r = next_cid c /\ exists kk, get_call (fst (fst (fst r))) (snd r) = Some kk /\ c_timer kk <> None).
Proof.
  intros HF. unfold call_begin.
  pose proof (M_send_messages c send) as HM. pose proof (send_messages_none c send) as K.
  destruct (send_messages c send) as [[c1 o] ex]. cbn [fst] in HM.
  destruct ex; cbn [fst snd]; [split; [apply M_Mx; exact HM|discriminate]|].
  destruct (K c1 o eq_refl) as [-> _]. clear HM K.
  match goal with |- context [fold_left ?f types ?x] => set (c2 := x); pose proof (gv_fold_add types (HCall (next_cid c)) c2) as G end.
  split.
  - eapply Mx_trans; [|apply M_Mx, M_gv, G].
    constructor; try (intros _; split; [reflexivity|exact (fun H => H)]).
    + intros t _. replace (get_task c2 t) with (get_task c t) by (destruct t; reflexivity). apply tmono_refl.
    + intros cid kk Gk. exists kk. split; [apply find_app_some; exact Gk|split; [reflexivity|right; apply crel_refl]].
  - intros _. split; [reflexivity|].
    eexists. split.
    + unfold get_call. rewrite (gv_calls _ _ G). unfold c2. cbn [calls set]. rewrite (find_app_none _ _ _ (next_cid_fresh c HF)).
      cbn. rewrite Nat.eqb_refl. reflexivity.
    + cbn. discriminate.
Qed.

Lemma call_finally_X c cid kk t : get_call c cid = Some kk -> c_owner kk = t -> Mx (eq t) c (call_finally c cid).
Proof.
  intros G Ho. unfold call_finally. rewrite G.
  set (c1 := upd_call c cid (fun x => x <| c_timer := None |>)).
  apply (Mx_trans _ c c1); [|apply M_Mx; eapply M_trans; [apply M_gv, gv_fold_remove|apply M_gv; reflexivity]].
  constructor; try (intros _; split; [reflexivity|exact (fun H => H)]).
  - intros t' _. unfold c1. rewrite get_task_upd. apply tmono_refl.
  - intros cid' k G'. unfold c1. rewrite get_call_upd by (intros q Hq; exact Hq).
    destruct (Nat.eqb cid' cid) eqn:E; rewrite G'; eexists; (split; [reflexivity|]); (split; [reflexivity|]); [left|right; apply crel_refl].
    (* the call whose timer goes is the one t awaits *)
    apply Nat.eqb_eq in E. subst cid'. rewrite G in G'. apply some_inj in G'. subst k. symmetry. exact Ho.
Qed.

Lemma take_cancel_keeps c t : calls (fst (take_cancel c t)) = calls c /\ next_cid (fst (take_cancel c t)) = next_cid c.
Proof. unfold take_cancel. destruct (must_cancel _); cbn [fst]; [destruct t; split; reflexivity|split; reflexivity]. Qed.

Lemma take_finally_X c t cid kk : CI c -> exists_task c t -> awaited (pc (get_task c t)) = Some cid -> get_call c cid = Some kk ->
  Mx (eq t) c (call_finally (fst (take_cancel c t)) cid).
Proof.
  intros HC Hex Ha G. eapply Mx_trans; [apply Mx_take_cancel, Hex|].
  apply (call_finally_X _ cid kk); [|exact (awaited_own c t cid kk HC Ha G)].
  unfold get_call in *. rewrite (proj1 (take_cancel_keeps c t)). exact G.
Qed.

Lemma finish_fail_X c e : XG TFinish c (fst (finish_fail c e)).
Proof.
  unfold finish_fail.
  pose proof (M_interrupt_exit c TFinish e I) as H0. destruct (interrupt_exit c TFinish e) as [c0 e1]. cbn [fst] in H0.
  apply (XG_after c0 (M_Mx _ _ _ H0)).
  apply (XG_after (c0 <| intr_finish := IExited |> <| hs_timer := None |>)); [apply Mx_others; reflexivity|].
  exact (cleanup_finish_X TFinish _ (fun c2 => TRaise (wrap_fatal c2 e1)) set_finish_future (fun _ => I)
           (fun x => M_cpath _ _ _ (path_set_finish_future x))).
Qed.
Lemma finish_success_X c : XG TFinish c (fst (finish_success c)).
Proof.
  unfold finish_success. set (c2 := set_finish_future (c <| intr_finish := IExited |>)).
  apply (XG_after c2); [eapply Mx_trans; [|apply M_Mx, (M_cpath _ _ _ (path_set_finish_future _))]; apply Mx_others; reflexivity|].
  set (c3 := schedule_keep_alive (set_state c2 Connected <| ever_connected := true |>)).
  assert (Open : XG TFinish c2 (fst (finish_task c3 TFinish TOk)))
    by (apply (XG_after c3); [apply M_Mx, M_gv; reflexivity|apply XG_done; exact I]).
  destruct (cs c2); try exact Open.
  (* Closed: the connection was closed during the handshake *)
  exact (cleanup_finish_X TFinish c2 (fun c3 => TRaise (wrap_fatal c3 Interrupted)) (fun x => x) (fun _ => I) M_refl).
Qed.

Lemma F1_calls_next c c' : calls c' = calls c -> next_cid c' = next_cid c -> F1 c -> F1 c'.
Proof. intros E1 E2. apply F1_ac. unfold ac. rewrite E1, E2. reflexivity. Qed.

Lemma internal_handlers_keeps c : calls (internal_handlers c) = calls c /\ next_cid (internal_handlers c) = next_cid c.
Proof. exact (pair_inv _ _ _ _ (ab_ac _ _ (ab_internal_handlers c))). Qed.

Lemma finish_after_ready_X c : F1 c -> XG TFinish c (fst (finish_after_ready c)).
Proof.
  intro HF. unfold finish_after_ready. set (c0 := c <| hs_timer := None |>).
  apply (XG_after c0); [apply Mx_others; reflexivity|].
  (* not Closed: the same continuation whatever the state *)
  match goal with |- XG _ _ (fst (match cs c0 with Init => ?b | _ => _ end)) => assert (H : XG TFinish c0 (fst b)) end;
    [|destruct (cs c0); first [exact H|apply finish_fail_X]].
  match goal with |- context [call_begin ?x ?a ?b ?d ?e ?f ?g] =>
    assert (Hx : Mx (eq TFinish) c0 x) by
      (eapply Mx_trans; [apply (Mx_set_task c0 TFinish); exact I|]; apply M_Mx, M_gv; rewrite gv_internal_handlers; reflexivity);
    assert (HFx : F1 x) by (apply (F1_ac c); [rewrite (ab_ac _ _ (ab_internal_handlers _)); reflexivity|exact HF]);
    assert (Hpc : pc (get_task x TFinish) = PF_Hello (next_cid x)) by
      (rewrite (proj2 (internal_handlers_keeps _));
       rewrite (get_task_gv (set_state (set_task c0 TFinish (get_task c0 TFinish <| pc := PF_Hello (next_cid c0) |>)) HsDone) x TFinish) by apply gv_internal_handlers;
       reflexivity);
    destruct (call_begin_X x a b d e f g HFx) as (HB & HN);
    destruct (call_begin x a b d e f g) as [[[c2 o] ex] cid] end.
  cbn [fst snd] in HB, HN. apply (XG_after _ Hx), (XG_after _ (Mx_skip _ _ _ HB)).
  destruct ex as [e|].
  - (* the hello could not be sent *) pose proof (finish_fail_X c2 e) as A. destruct (finish_fail c2 e) as [c3 o3]. exact A.
  - (* it is out: the task waits for the answer under the timer of the call *)
    cbn [fst]. destruct (HN eq_refl) as (Ec & kk & Gk & Tk). split; [apply Mx_refl|].
    unfold tguard. rewrite (proj1 (x_t _ _ _ HB TFinish (fun F => F))), Hpc, <- Ec. exists kk. split; [exact Gk|left; exact Tk].
Qed.

Lemma wake_finish_X c c' o : wake_finish c = Some (c', o) -> CI c -> XG TFinish c c'.
Proof.
  unfold wake_finish. cbn [get_task]. intros E HC. pose proof (i_f1 _ _ HC) as HF.
  pose proof (Mx_take_cancel c TFinish I) as H1. destruct (take_cancel_keeps c TFinish) as [K1 K2].
  destruct (pc (t_finish c)) as [| | | | |cid| | | |] eqn:Epc; try discriminate.
  - (* PF_Create: create_connection returned *)
    destruct (_ || _); [|discriminate].
    destruct (take_cancel c TFinish) as [c1 mc]. cbn [fst] in H1, K1, K2. apply (XG_after c1 H1).
    match type of E with (match ?d with _ => _ end) = _ => destruct d as [|e] end.
    + (* with a transport: the helper is created *)
      match type of E with context [ready ?x] => set (c2 := x) in *; apply (XG_after c2); [apply Mx_others; reflexivity|] end.
      destruct (ready c2); rewrite (some_pair_fst _ _ _ E);
        first [apply finish_fail_X | apply finish_after_ready_X, (F1_calls_next c c2 K1 K2 HF) | idtac].
      (* the helper is not ready yet: the handshake timer stands behind the wait *)
      split; [apply Mx_set_task; exact I|]. unfold tguard. cbn. left. discriminate.
    + (* it raised, or the task was cancelled *)
      match type of E with context [finish_fail ?x ?ee] =>
        apply (XG_after x); [destruct (transport c1); first [apply Mx_refl|apply M_Mx, M_gv; reflexivity]|];
        pose proof (finish_fail_X x ee) as A; destruct (finish_fail x ee) as [c3 o3] end.
      rewrite (some_pair_fst _ _ _ E). exact A.
  - (* PF_Ready: the helper is ready, or failed *)
    destruct (_ || _); [|discriminate].
    destruct (take_cancel c TFinish) as [c1 mc]. cbn [fst] in H1, K1, K2. apply (XG_after c1 H1).
    destruct mc; [|destruct (ready c1)]; rewrite (some_pair_fst _ _ _ E);
      first [apply finish_fail_X | apply finish_after_ready_X, (F1_calls_next c c1 K1 K2 HF)].
  - (* PF_Hello: hello / login answered *)
    destruct (get_call c cid) as [kk|] eqn:Eg; [|discriminate].
    destruct (_ || _); [|discriminate].
    pose proof (take_finally_X c TFinish cid kk HC I (f_equal awaited Epc) Eg) as H3.
    destruct (take_cancel c TFinish) as [c1 mc]. cbn [fst] in H3. apply (XG_after _ H3).
    match type of E with (match ?d with _ => _ end) = _ => destruct d as [|e] end;
      [destruct (check_hello_login _ _)|]; rewrite (some_pair_fst _ _ _ E); first [apply finish_fail_X | apply finish_success_X].
Qed.

Lemma disconnect_after_wait_X c : F1 c -> XG TDisc c (fst (disconnect_after_wait c)).
Proof.
  intro HF. unfold disconnect_after_wait. set (c1 := c <| expected_disconnect := true |>).
  apply (XG_after c1); [apply M_Mx, M_gv; reflexivity|].
  assert (HF1 : F1 c1) by exact (F1_ac c c1 eq_refl HF).
  pose proof (fun x => cleanup_finish_X TDisc x (fun _ => TOk) (fun y => y) (fun _ => I) M_refl) as CF. cbv beta in CF.
  destruct (handshake_complete c1); [|apply CF].
  match goal with |- context [call_begin ?x ?a ?b ?d ?e ?f ?g] =>
    destruct (call_begin_X x a b d e f g HF1) as (HB & HN); destruct (call_begin x a b d e f g) as [[[c2 o] ex] cid] end.
  cbn [fst snd] in HB, HN. apply (XG_after _ (Mx_skip _ _ _ HB)).
  assert (Ends : forall r, XG TDisc c2 (fst (let '(c3, o3) := finish_task c2 TDisc r in (c3, o ++ o3))))
    by (intro r; pose proof (XG_done c2 TDisc r I) as H4; destruct (finish_task c2 TDisc r) as [c4 o4]; exact H4).
  destruct ex as [e|].
  - (* the request could not be sent: any exception but an APIConnectionError ends the task *)
    destruct e as [le| | | | |]; try apply Ends.
    (* an APIConnectionError is logged: cleanup, then the task ends *)
    specialize (CF c2). destruct (cleanup c2) as [c3 o3]. destruct (finish_task c3 TDisc TOk) as [c4 o4]. exact CF.
  - (* the request is out: the task waits under the timer of the call *)
    cbn [fst]. destruct (HN eq_refl) as (Ec & kk & Gk & Tk). split; [apply Mx_set_task; exact I|].
    unfold tguard. cbn. exists kk. split; [exact Gk|left; exact Tk].
Qed.

Lemma wake_disc_X c c' o : wake_disc c = Some (c', o) -> CI c -> XG TDisc c c'.
Proof.
  unfold wake_disc. cbn [get_task]. intros E HC. pose proof (i_f1 _ _ HC) as HF.
  pose proof (Mx_take_cancel c TDisc I) as H1. destruct (take_cancel_keeps c TDisc) as [K1 K2].
  destruct (pc (t_disc c)) as [| | | | | | |cid| |] eqn:Epc; try discriminate.
  - (* PD_Wait: the wait for the connect phase is over *)
    destruct (_ || _); [|discriminate].
    destruct (take_cancel c TDisc) as [c1 mc]. cbn [fst] in H1, K1, K2. apply (XG_after c1 H1).
    apply (XG_after (c1 <| disc_timer := None |>)); [apply Mx_others; reflexivity|].
    destruct mc; rewrite (some_pair_fst _ _ _ E); [apply XG_done; exact I|].
    match goal with |- XG _ _ (fst (disconnect_after_wait ?x)) =>
      apply (XG_after x); [repeat dm; first [apply Mx_refl|apply M_Mx, M_gv; reflexivity]|];
      apply disconnect_after_wait_X, (F1_calls_next c); [repeat dm; exact K1|repeat dm; exact K2|exact HF] end.
  - (* PD_Resp: the response arrived, or the call failed *)
    destruct (get_call c cid) as [kk|] eqn:Eg; [|discriminate].
    destruct (_ || _); [|discriminate].
    pose proof (take_finally_X c TDisc cid kk HC I (f_equal awaited Epc) Eg) as H3.
    destruct (take_cancel c TDisc) as [c1 mc]. cbn [fst] in H3. apply (XG_after _ H3).
    pose proof (cleanup_finish_X TDisc (call_finally c1 cid) (fun _ => TOk) (fun y => y) (fun _ => I) M_refl) as CF. cbv beta in CF.
    destruct (cleanup (call_finally c1 cid)) as [c3 o3]. destruct (finish_task c3 TDisc TOk) as [c4 o4].
    match type of E with (match ?d with _ => _ end) = _ => destruct d as [|[l| | | | |]] end; rewrite (some_pair_fst _ _ _ E);
      first [exact CF | apply XG_done; exact I].
Qed.

Lemma exists_task_keys c c' t : map fst (call_tasks c') = map fst (call_tasks c) -> exists_task c t -> exists_task c' t.
Proof.
  intros E H. destruct t; try exact I. cbn in *.
  assert (Q : forall l : list (nat * task), find (fun p => Nat.eqb (fst p) cid) l <> None <-> In cid (map fst l)).
  { induction l as [|p l IHl]; cbn; [split; [congruence|tauto]|]. destruct (Nat.eqb (fst p) cid) eqn:Eq.
    - apply Nat.eqb_eq in Eq. split; [auto|discriminate].
    - apply Nat.eqb_neq in Eq. rewrite IHl. tauto. }
  apply Q. rewrite E. apply Q. exact H.
Qed.

Lemma wake_call_X c cid c' o : wake_call c cid = Some (c', o) -> CI c -> XG (TCall cid) c c'.
Proof.
  unfold wake_call. intros E HC.
  destruct (pc (get_task c (TCall cid))) as [| | | | | | | |x|] eqn:Epc; try discriminate.
  destruct (get_call c cid) as [kk|] eqn:Eg; [|discriminate].
  destruct (_ || _); [|discriminate].
  assert (Hex : exists_task c (TCall cid)) by (apply pc_exists_task; rewrite Epc; discriminate).
  assert (Ha : awaited (pc (get_task c (TCall cid))) = Some x) by (rewrite Epc; reflexivity).
  pose proof (awaited_call_id c cid x HC Ha) as ->.
  pose proof (take_finally_X c (TCall cid) cid kk HC Hex Ha Eg) as H3.
  assert (Hex2 : exists_task (call_finally (fst (take_cancel c (TCall cid))) cid) (TCall cid)).
  { eapply exists_task_keys; [|exact Hex]. rewrite (s_ct _ _ (S1_call_finally _ cid)). exact (y_ids _ _ _ (S2_take_cancel c (TCall cid))). }
  destruct (take_cancel c (TCall cid)) as [c1 mc]. cbn [fst] in *.
  rewrite (some_pair_fst _ _ _ E). apply (XG_after _ H3), XG_done, Hex2.
Qed.

Definition ready_now (c : conn) (t : tid) : Prop :=
  let k := get_task c t in
  must_cancel k = true \/
  match pc k with
  | PS_Resolve | PS_Tcp _ => do_connect c <> EPending
  | PF_Create => made_waiter c <> EPending
  | PF_Ready => ready c <> RPending
  | PF_Hello cid | PD_Resp cid | PC_Wait cid => exists kk, get_call c cid = Some kk /\ cfut_done (c_fut kk) = true
  | PD_Wait => disc_wait_done c = true
  | _ => False
  end.
Definition done_at (c : conn) (cid : nat) : Prop := exists kk, get_call c cid = Some kk /\ cfut_done (c_fut kk) = true.
(* what a coroutine suspended at program point p awaits is no longer pending *)
Definition settled (c : conn) (p : tpc) : Prop :=
  match p with
  | PS_Resolve | PS_Tcp _ => do_connect c <> EPending
  | PF_Create => made_waiter c <> EPending
  | PF_Ready => ready c <> RPending
  | PF_Hello cid | PD_Resp cid | PC_Wait cid => done_at c cid
  | PD_Wait => disc_wait_done c = true
  | _ => False
  end.
Lemma ready_now_settled c t : ready_now c t <-> must_cancel (get_task c t) = true \/ settled c (pc (get_task c t)).
Proof. split; exact (fun H => H). Qed.

Lemma settled_set_task c t k' p : settled c p -> settled (set_task c t k') p.
Proof. destruct t; exact (fun H => H). Qed.

Lemma cancel_awaited_settles c t k c1 : cancel_awaited c t k = (c1, true) -> settled c1 (pc k).
Proof.
  assert (K : forall cid, match get_call c cid with
                          | Some kk => match c_fut kk with
                                       | CPending => (upd_call c cid (fun x => x <| c_fut := CCancelled |>), true)
                                       | _ => (c, false) end
                          | None => (c, false) end = (c1, true) -> done_at c1 cid).
  { intros cid E. destruct (get_call c cid) as [kk|] eqn:G; [destruct (c_fut kk)|]; apply pair_inv in E; destruct E as [<- Q]; try discriminate Q.
    eexists. split; [rewrite get_call_upd, Nat.eqb_refl, G by (intros q Hq; exact Hq); reflexivity|reflexivity]. }
  unfold cancel_awaited, settled, cancel_efut. destruct (pc k); try apply K; repeat dm; intro E;
    apply pair_inv in E; destruct E as [<- Q]; try discriminate Q; cbn; (discriminate || reflexivity).
Qed.

Lemma cancel_task_ready c t : task_running (get_task c t) = true -> ready_now (cancel_task c t) t.
Proof.
  intro Hr. unfold cancel_task. rewrite Hr. cbn [negb].
  set (k1 := get_task c t <| ncancel := S (ncancel (get_task c t)) |>).
  pose proof (get_task_cancel_awaited c t k1 t) as HT. pose proof (cancel_awaited_settles c t k1) as HS.
  destruct (cancel_awaited c t k1) as [c1 d]. cbn [fst] in HT.
  assert (Hex : exists_task c1 t) by (apply task_running_exists; rewrite HT; exact Hr).
  unfold ready_now. destruct d; match goal with |- context [set_task c1 t ?k'] => rewrite (proj1 (set_task_facts c1 t k' Hex)) end.
  - right. apply settled_set_task, (HS c1 eq_refl).
  - left. reflexivity.
Qed.

(* cancel_task_ready for the start task, in the terms of its guard *)
Lemma cancel_start_ready c : pc (t_start c) = PS_Resolve \/ (exists g, pc (t_start c) = PS_Tcp g) ->
  must_cancel (t_start (cancel_task c TStart)) = true \/ do_connect (cancel_task c TStart) <> EPending.
Proof.
  intro Hp. assert (R : task_running (get_task c TStart) = true) by (unfold task_running; cbn [get_task]; destruct Hp as [->|[g ->]]; reflexivity).
  pose proof (cancel_task_ready c TStart R) as H2. destruct (m_t _ _ (M_cancel_task c TStart) TStart) as [Ep _].
  unfold ready_now in H2. rewrite Ep in H2. cbn [get_task] in *. destruct Hp as [Hp|[g Hp]]; rewrite Hp in H2; exact H2.
Qed.

Lemma call_start_X c send types ap st tmo c' o : CI c -> step c (LCallStart send types ap st tmo) = Some (c', o) -> XG (TCall (next_cid c)) c c'.
Proof.
  intros HC E. pose proof (i_f1 _ _ HC) as HF. cbn [step] in E.
  set (cid := next_cid c) in *.
  match type of E with context [call_begin ?x ?a ?b ?d ?e ?f ?g] => set (c0 := x) in * end.
  assert (Hnew : get_task c0 (TCall cid) = task0 <| pc := PC_Wait cid |> /\ forall t, t <> TCall cid -> get_task c0 t = get_task c t)
    by (destruct (new_task_facts c (task0 <| pc := PC_Wait cid |>) HC) as (A & B & _); exact (conj A B)).
  destruct Hnew as [Hself Hoth].
  assert (H0 : Mx (eq (TCall cid)) c c0).
  { constructor; try (intros _; split; [reflexivity|auto]).
    - intros t Hn. rewrite Hoth by (intro Q; exact (Hn (eq_sym Q))). apply tmono_refl.
    - apply calls_refl_x. reflexivity. }
  assert (HF0 : F1 c0) by exact (F1_ac c c0 eq_refl HF).
  match type of E with context [call_begin ?x ?a ?b ?d ?e ?f ?g] =>
    destruct (call_begin_X x a b d e f g HF0) as (HB & HN); destruct (call_begin x a b d e f g) as [[[c1 o1] ex] cid'] end.
  cbn [fst snd] in HB, HN. apply (XG_after c0 H0), (XG_after c1 (Mx_skip _ _ _ HB)).
  assert (Hpc : pc (get_task c1 (TCall cid)) = PC_Wait cid) by (rewrite (proj1 (x_t _ _ _ HB (TCall cid) (fun F => F))), Hself; reflexivity).
  destruct ex as [e|].
  - (* the request could not be sent: the task ends *)
    match type of E with context [finish_task ?x ?t ?r] =>
      pose proof (XG_done x t r) as H4; destruct (finish_task x t r) as [c3 o3] end.
    rewrite (some_pair_fst _ _ _ E). apply (XG_after (c1 <| next_cid := S cid |>)); [apply M_Mx, M_gv; reflexivity|].
    apply H4, pc_exists_task. change (pc (get_task c1 (TCall cid)) <> PNone). rewrite Hpc. discriminate.
  - (* it is out: the task waits under the timer of the call *)
    rewrite (some_pair_fst _ _ _ E). cbn [fst]. destruct (HN eq_refl) as (Ec & kk & Gk & Tk). split; [apply Mx_refl|].
    unfold tguard. rewrite Hpc. exists kk. change (cid' = cid) in Ec. rewrite <- Ec. split; [exact Gk|left; exact Tk].
Qed.

(* labels that run or cancel no task and arm or drop no timer of a phase: every move is in M *)
Definition keeps_all (l : label) : Prop :=
  match l with
  | LForce | LSend _ | LSub _ _ | LUnsub _ _ | LResolveDone _ _ | LTcpDone _ | LMade | LMadeWaiter | LHelperReady _ | LEof | LLost _
  | LWriteFails _ | LAdvance _ | LConnLostCb | LTimer TkPing | LTimer TkPong | LTimer (TkCall _) => True
  | _ => False
  end.
Lemma keeps_all_actor l t : keeps_all l -> ~ actor l t.
Proof. unfold actor, runs. destruct l; cbn; try tauto. match goal with k : timer_kind |- _ => destruct k end; tauto. Qed.

Lemma M_step l c o c' : step_atom l c o c' -> keeps_all l -> M c c'.
Proof.
  intros A Q.
  assert (Na : forall t, ~ actor l t) by (intro t; exact (keeps_all_actor l t Q)).
  assert (Nr : forall t, ~ runs l t) by (intros t H; exact (Na t (or_introl H))).
  assert (Nc : forall t, ~ cancels l t) by (intros t H; exact (Na t (or_intror H))).
  (* the moves of a task or of a label outside keeps_all do not occur; most of the others leave gv alone *)
  destruct A;
    try (exfalso; eapply Nr; eassumption); try (exfalso; eapply Nc; eassumption); try (exfalso; eapply Na; eassumption); try (subst l; exact (False_ind _ Q));
    try (apply M_gv; reflexivity);
    lazymatch goal with
    | H : close_atom _ _ _ |- _ => exact (M_close _ _ _ H)
    | H : carries_data l |- _ => destruct H as [items ->]; destruct Q
    | H : starts_call l |- _ => destruct H as (a & b & d & e & f & ->); destruct Q
    | H : runs l TFinish \/ l = LTimer TkHandshake |- _ => destruct H as [H| ->]; [exact (False_ind _ (Nr _ H))|destruct Q]
    | _ => idtac
    end.
  - (* SCallTimeout: the timer of the call goes, its future is done *)
    apply M_upd_call. intro x. unfold crel. destruct (c_fut x) eqn:Ef; cbn; rewrite ?Ef; auto 6.
  - (* SResolved: what the start task awaits completes *) apply M_intro; try reflexivity; auto. apply F2_refl, crel_refl.
  - (* STcpDone *) apply M_intro; try reflexivity; auto. apply F2_refl, crel_refl.
  - (* SMadePlain: the plaintext helper is ready at once *)
    apply (M_trans _ (c <| made := true |>)); [apply M_gv; reflexivity|apply M_ready; right; discriminate].
  - (* SSub *) apply M_gv, gv_add.
Qed.
Lemma M_spath l c o c' : path (step_atom l) c o c' -> keeps_all l -> M c c'.
Proof. intros P Q. revert c o c' P. apply path_rel; [exact M_refl|exact M_trans|]. intros x ox x' A. exact (M_step l x ox x' A Q). Qed.

Lemma XG_GA t c c' : XG t c c' -> CI c -> GA c -> GA c'.
Proof. intros [A B] HC HG. exact (GA_Mx c c' t A HC HG B). Qed.

Theorem step_GA c l c' o : CI c -> GA c -> step c l = Some (c', o) -> GA c'.
Proof.
  intros HC HG E. pose proof (i_f1 _ _ HC) as HF.
  assert (viaM : forall r, Some r = Some (c', o) -> M c (fst r) -> GA c').
  { intros r Er H. rewrite (some_pair_fst _ _ _ Er). exact (GA_M _ _ H HC HG). }
  assert (viaX : forall t r, Some r = Some (c', o) -> XG t c (fst r) -> GA c').
  { intros t r Er H. rewrite (some_pair_fst _ _ _ Er). exact (XG_GA t _ _ H HC HG). }
  (* most labels keep every guard move by move *)
  assert (viaPath : keeps_all l -> GA c') by (intro Q; exact (GA_M _ _ (M_spath l c o c' (step_path _ _ _ _ E) Q) HC HG)).
  destruct l; try (exact (viaPath I)); try (cbn [step] in E).
  - (* LStart: the resolve timer is armed *)
    destruct (cs c); try (apply (viaM _ E), M_refl). destruct (pc (t_start c)); try discriminate.
    apply (viaX TStart _ E). split; [apply Mx_others; reflexivity|]. unfold tguard. cbn. left. discriminate.
  - (* LFinish *)
    destruct (cs c); try (apply (viaM _ E), M_refl). destruct (pc (t_finish c)); try discriminate.
    apply (viaX TFinish _ E). split; [apply Mx_others; reflexivity|]. unfold tguard. cbn. exact I.
  - (* LDisconnect *)
    destruct (pc (t_disc c)); try discriminate.
    set (c1 := c <| t_disc := (t_disc c) <| pc := PD_Wait |> |>) in E.
    assert (Go : XG TDisc c (fst (disconnect_after_wait c1)))
      by (apply (XG_after c1); [apply Mx_others; reflexivity|apply disconnect_after_wait_X, (F1_ac c); [reflexivity|exact HF]]).
    destruct (finish_fut c); try exact (viaX TDisc _ E Go).
    (* FPending: the wait for the connect phase has its own timer *)
    apply (viaX TDisc _ E). split; [apply Mx_others; reflexivity|]. unfold tguard. cbn. left. discriminate.
  - (* LCallStart *) exact (XG_GA _ _ _ (call_start_X _ _ _ _ _ _ _ _ HC E) HC HG).
  - (* LCancel *)
    destruct (task_running _) eqn:Er; [|apply (viaM _ E), M_refl].
    apply (viaM _ E). eapply M_trans; [|apply M_cancel_task].
    apply M_set_task_mono; [apply task_running_exists, Er|split; [reflexivity|cbn; auto]].
  - (* LData *)
    destruct (transport c); try discriminate. destruct (made c); try discriminate.
    pose proof (M_dpath _ _ _ (path_data_loop items c) (f_uniq _ HF)) as S.
    destruct (data_loop c items) as [[c1 o1] ex]. cbn [fst] in S.
    destruct ex as [e|]; [destruct (transport c1)|]; apply (viaM _ E); first [exact S | eapply M_trans; [exact S|apply M_gv; reflexivity]].
  - (* LWake *)
    destruct t; cbn [step] in E.
    + exact (XG_GA _ _ _ (wake_start_X c c' o E) HC HG).
    + exact (XG_GA _ _ _ (wake_finish_X c c' o E HC) HC HG).
    + exact (XG_GA _ _ _ (wake_disc_X c c' o E HC) HC HG).
    + exact (XG_GA _ _ _ (wake_call_X c cid c' o E HC) HC HG).
  - (* LIntr: the interrupted flag, then Task.cancel() *)
    assert (Hi : forall x t k, tmono (get_task x t) (k <| interrupted := true |>) -> exists_task x t -> M x (cancel_task (set_task x t (k <| interrupted := true |>)) t))
      by (intros x t k Hm Hex; eapply M_trans; [apply M_set_task_mono; eassumption|apply M_cancel_task]).
    destruct is_start.
    + destruct (start_fut c); try discriminate. destruct (intr_start c); try discriminate; apply (viaM _ E); [|apply M_refl].
      apply (M_trans _ (c <| intr_start := IFired |>)); [apply M_gv; reflexivity|]. apply (Hi _ TStart); [split; [reflexivity|exact (fun H => H)]|exact I].
    + destruct (finish_fut c); try discriminate. destruct (intr_finish c); try discriminate; apply (viaM _ E); [|apply M_refl].
      apply (M_trans _ (c <| intr_finish := IFired |>)); [apply M_gv; reflexivity|]. apply (Hi _ TFinish); [split; [reflexivity|exact (fun H => H)]|exact I].
  - (* LDiscWaitDone *)
    destruct (pc (t_disc c)) eqn:Ep; try discriminate.
    destruct (finish_fut c); try discriminate; destruct (disc_wait_done c); try discriminate; try (apply (viaM _ E), M_refl).
    all: apply (viaX TDisc _ E); (split; [apply Mx_others; reflexivity|]); unfold tguard; cbn; rewrite Ep; right; right; reflexivity.
  - (* LTimer *)
    destruct k; try (exact (viaPath I)); cbn [step] in E.
    + (* TkHandshake: a finish task waiting for the helper becomes ready; its other waits are as they were *)
      destruct (due _ _); [|discriminate].
      assert (X : Mx (eq TFinish) c c' /\ ready c' <> RPending /\ t_finish c' = t_finish c /\ calls c' = calls c).
      { destruct (ready c) eqn:Er; apply some_pair_inv in E; destruct E as [<- _]; (split; [apply Mx_others; reflexivity|]); cbn; rewrite ?Er; repeat split; discriminate. }
      destruct X as (X1 & X2 & X3 & X4).
      eapply (GA_Mx c _ TFinish); [exact X1|exact HC|exact HG|].
      pose proof (HG TFinish) as G. unfold tguard in *. cbn [get_task] in *. rewrite X3.
      destruct (pc (t_finish c)); try exact G.
      * (* PF_Ready *) right. right. exact X2.
      * (* PF_Hello: the calls are as they were *) destruct G as (kk & Gk & Hk). exists kk. unfold get_call in *. rewrite X4. auto.
    + (* TkConnect: asyncio.timeout() cancels the start task *)
      destruct (due _ _); [|discriminate].
      match type of E with Some (cancel_task ?x TStart, _) = _ =>
        pose proof (M_cancel_task x TStart) as H1; set (c1 := x) in * end.
      apply (viaX TStart _ E). cbn [fst]. split; [eapply Mx_trans; [apply (Mx_others TStart c c1); reflexivity|apply M_Mx; exact H1]|].
      pose proof (HG TStart) as G. unfold tguard in *. cbn [get_task] in *.
      destruct (m_t _ _ H1 TStart) as [Ep _]. cbn [get_task] in Ep. rewrite Ep.
      change (pc (t_start c1)) with (pc (t_start c)) in *.
      destruct (pc (t_start c)) eqn:Ep0; try exact G; try contradiction; right; apply cancel_start_ready; change (pc (t_start c1)) with (pc (t_start c)); rewrite Ep0; eauto.
    + (* TkDiscWait *)
      destruct (pc (t_disc c)) eqn:Ep; try discriminate. destruct (due _ _); [|discriminate].
      apply (viaX TDisc _ E). split; [apply Mx_others; reflexivity|]. unfold tguard. cbn. rewrite Ep. right. right. reflexivity.
Qed.

Lemma GA_init n e ka scr : GA (init n e ka scr).
Proof. intro t. unfold tguard. destruct t; cbn; exact I. Qed.

Lemma run_GA ls : forall c c' os, CI c -> GA c -> run c ls = Some (c', os) -> CI c' /\ GA c'.
Proof.
  intros c c' os HC HG. apply (run_invariant (fun x => CI x /\ GA x)); [|split; assumption].
  intros x l x' o [A B] E. split; [exact (proj1 (step_cancel x l x' o A E))|exact (step_GA x l x' o A B E)].
Qed.

Lemma reach_GA n e ka scr ls c os : run (init n e ka scr) ls = Some (c, os) -> CI c /\ GA c.
Proof. exact (run_GA ls _ _ _ (CI_init n e ka scr) (GA_init n e ka scr)). Qed.

Theorem every_await_guarded n e ka scr ls c os t : run (init n e ka scr) ls = Some (c, os) -> tguard c t.
Proof. intro E. destruct (reach_GA n e ka scr ls c os E) as [_ G]. apply G. Qed.

Definition deadline_of (c : conn) (t : tid) : option Z :=
  match pc (get_task c t) with
  | PS_Resolve | PS_Tcp _ => conn_timer c
  | PF_Ready => hs_timer c
  | PF_Hello cid | PD_Resp cid | PC_Wait cid => match get_call c cid with Some kk => c_timer kk | None => None end
  | PD_Wait => disc_timer c
  | _ => None
  end.

Lemma awaited_settled c p cid : awaited p = Some cid -> done_at c cid -> settled c p.
Proof. destruct p; try discriminate; intros E D; apply some_inj in E; subst cid; exact D. Qed.
Lemma awaited_deadline c t cid : awaited (pc (get_task c t)) = Some cid ->
  deadline_of c t = match get_call c cid with Some kk => c_timer kk | None => None end.
Proof. unfold deadline_of. destruct (pc (get_task c t)); try discriminate; intro E; apply some_inj in E; subst cid; reflexivity. Qed.

Lemma opt_some {A} (x : option A) : x <> None -> exists d, x = Some d.
Proof. destruct x; [eauto|congruence]. Qed.

Theorem guard_meaning c t : tguard c t -> task_running (get_task c t) = true ->
  ready_now c t \/ (exists d, deadline_of c t = Some d) \/ (t = TFinish /\ pc (get_task c t) = PF_Create /\ made_waiter c = EPending).
Proof.
  unfold tguard, ready_now, deadline_of, task_running, call_guard. intros G R.
  destruct t; destruct (pc (get_task c _)) eqn:Ep; try discriminate; try contradiction.
  all: try (destruct G as [G|[G|G]]; [right; left; apply opt_some; exact G|left; left; exact G|left; right; exact G]).
  all: try (destruct G as (kk & Gk & [G|[G|G]]);
            [right; left; rewrite Gk; apply opt_some; exact G|left; right; exists kk; split; assumption|left; left; exact G]).
  destruct (made_waiter c) eqn:Em; try (left; right; discriminate). right. right. auto.
Qed.

Theorem deadline_is_armed c t d : deadline_of c t = Some d -> In d (armed_deadlines c).
Proof.
  unfold deadline_of, armed_deadlines. intro H. rewrite !in_app_iff.
  assert (Call : forall cid, match get_call c cid with Some kk => c_timer kk | None => None end = Some d ->
                 In d (flat_map (fun k => match c_timer k with Some x => [x] | None => [] end) (calls c))).
  { intros cid Ht. destruct (get_call c cid) as [kk|] eqn:G; [|discriminate]. apply get_call_in in G. destruct G as [G _].
    apply in_flat_map. exists kk. split; [exact G|rewrite Ht; left; reflexivity]. }
  destruct (pc (get_task c t)) as [| |g| | |cid| |cid|cid|r]; try discriminate.
  - (* PS_Resolve: the connect timer *) do 3 right. left. rewrite H. left. reflexivity.
  - (* PS_Tcp *) do 3 right. left. rewrite H. left. reflexivity.
  - (* PF_Ready: the handshake timer *) do 2 right. left. rewrite H. left. reflexivity.
  - (* PF_Hello *) do 5 right. exact (Call cid H).
  - (* PD_Wait: the timer of its wait *) do 4 right. left. rewrite H. left. reflexivity.
  - (* PD_Resp *) do 5 right. exact (Call cid H).
  - (* PC_Wait *) do 5 right. exact (Call cid H).
Qed.

Lemma efut_settled f : f <> EPending -> negb (match f with EPending => true | _ => false end) = true.
Proof. destruct f; try reflexivity. intro H. contradiction H. reflexivity. Qed.
Lemma call_settled c cid kk : get_call c cid = Some kk -> done_at c cid -> cfut_done (c_fut kk) = true.
Proof. intros G (k2 & G2 & D2). rewrite G in G2. apply some_inj in G2. subst k2. exact D2. Qed.

Theorem ready_can_wake c t : CI c -> GA c -> task_running (get_task c t) = true -> ready_now c t -> step c (LWake t) <> None.
Proof.
  intros HC HG R Hr. pose proof (HG t) as G. apply (proj1 (ready_now_settled c t)) in Hr. unfold tguard, task_running, settled in *.
  (* the wake-up test of every await is "a cancel is pending, or b", b true when what is awaited is settled *)
  assert (W : forall (S : Prop) (b : bool), must_cancel (get_task c t) = true \/ S -> (S -> b = true) -> must_cancel (get_task c t) || b = true).
  { intros S b [H|H] Hb; apply orb_true_iff; [left; exact H|right; exact (Hb H)]. }
  (* past the test every branch of the coroutine returns a state *)
  destruct t; cbn [step].
  - unfold wake_start. cbn [get_task] in *. destruct (pc (t_start c)); try discriminate; try contradiction.
    + (* PS_Resolve *) rewrite (W _ _ Hr) by apply efut_settled. destruct (take_cancel c TStart) as [c1 mc]. repeat dm; discriminate.
    + (* PS_Tcp *) rewrite (W _ _ Hr) by apply efut_settled. destruct (take_cancel c TStart) as [c1 mc]. repeat dm; discriminate.
  - unfold wake_finish. cbn [get_task] in *. destruct (pc (t_finish c)); try discriminate; try contradiction.
    + (* PF_Create *) rewrite (W _ _ Hr) by apply efut_settled. destruct (take_cancel c TFinish) as [c1 mc]. repeat dm; discriminate.
    + (* PF_Ready *) rewrite (W _ _ Hr) by (intro H; destruct (ready c); try reflexivity; contradiction H; reflexivity).
      destruct (take_cancel c TFinish) as [c1 mc]. repeat dm; discriminate.
    + (* PF_Hello: the guard says that the call exists *)
      destruct G as (kk & Gk & _). rewrite Gk. rewrite (W _ _ Hr) by exact (call_settled _ _ _ Gk).
      destruct (take_cancel c TFinish) as [c1 mc]. repeat dm; discriminate.
  - unfold wake_disc. cbn [get_task] in *. destruct (pc (t_disc c)); try discriminate; try contradiction.
    + (* PD_Wait *) rewrite (W _ _ Hr) by exact (fun H => H). destruct (take_cancel c TDisc) as [c1 mc]. repeat dm; discriminate.
    + (* PD_Resp *) destruct G as (kk & Gk & _). rewrite Gk. rewrite (W _ _ Hr) by exact (call_settled _ _ _ Gk).
      destruct (take_cancel c TDisc) as [c1 mc]. repeat dm; discriminate.
  - (* PC_Wait: the call the task awaits bears its number *)
    unfold wake_call. destruct (pc (get_task c (TCall cid))) as [| | | | | | | |x|] eqn:Ep; try discriminate; try contradiction.
    destruct G as (kk & Gk & _).
    assert (Hc : x = cid) by (apply (awaited_call_id c cid x HC); rewrite Ep; reflexivity).
    subst x. rewrite Gk. rewrite (W _ _ Hr) by exact (call_settled _ _ _ Gk).
    destruct (take_cancel c (TCall cid)) as [c1 mc]. discriminate.
Qed.

Lemma timer_fired_done c cid kk :
  get_call c cid = Some kk ->
  done_at (upd_call c cid (fun x => (match c_fut x with CPending => x <| c_fut := CExc PyTimeout |> | _ => x end) <| c_timer := None |>)) cid.
Proof.
  intro G. unfold done_at. rewrite get_call_upd by (intros q Hq; destruct (c_fut q); exact Hq). rewrite Nat.eqb_refl, G. cbn [option_map].
  eexists. split; [reflexivity|]. destruct (c_fut kk) eqn:Ef; cbn; rewrite ?Ef; reflexivity.
Qed.

Lemma call_deadline_fires c t cid d : awaited (pc (get_task c t)) = Some cid -> deadline_of c t = Some d -> d <= now c ->
  exists c' o, step c (LTimer (TkCall cid)) = Some (c', o) /\ ready_now c' t.
Proof.
  intros Ha Hd Hle. rewrite (awaited_deadline c t cid Ha) in Hd. cbn [step].
  destruct (get_call c cid) as [kk|] eqn:Gk; [|discriminate]. rewrite Hd. unfold due. rewrite (proj2 (Z.leb_le _ _) Hle).
  eexists. eexists. split; [reflexivity|]. apply (proj2 (ready_now_settled _ t)). right. rewrite get_task_upd.
  exact (awaited_settled _ _ cid Ha (timer_fired_done _ _ kk Gk)).
Qed.

Theorem due_deadline_fires c t d : GA c -> task_running (get_task c t) = true -> deadline_of c t = Some d -> d <= now c ->
  exists k c' o, step c (LTimer k) = Some (c', o) /\ ready_now c' t.
Proof.
  intros HG R Hd Hle.
  destruct (awaited (pc (get_task c t))) as [cid|] eqn:Ha.
  { destruct (call_deadline_fires c t cid d Ha Hd Hle) as (c' & o & S & Rn). exists (TkCall cid), c', o. auto. }
  pose proof (HG t) as G. unfold deadline_of in Hd. unfold tguard, task_running in *.
  assert (Hdue : forall x, x = Some d -> due x c = true) by (intros x ->; unfold due; apply Z.leb_le; exact Hle).
  destruct t; cbn [get_task] in *.
  - (* TStart: asyncio.timeout() cancels the task *)
    exists TkConnect. cbn [step]. destruct (pc (t_start c)) eqn:Ep; try discriminate; try contradiction.
    all: rewrite (Hdue _ Hd); eexists; eexists; (split; [reflexivity|]); apply cancel_task_ready; unfold task_running; cbn [get_task t_start set pc]; rewrite Ep; reflexivity.
  - (* TFinish *)
    destruct (pc (t_finish c)) eqn:Ep; try discriminate; try contradiction.
    exists TkHandshake. cbn [step]. rewrite (Hdue _ Hd). eexists. eexists. split; [reflexivity|].
    unfold ready_now. cbn [get_task]. destruct (ready c) eqn:Er; cbn; rewrite Ep; right; rewrite ?Er; discriminate.
  - (* TDisc *)
    destruct (pc (t_disc c)) eqn:Ep; try discriminate; try contradiction.
    exists TkDiscWait. cbn [step]. rewrite Ep, (Hdue _ Hd). eexists. eexists. split; [reflexivity|].
    unfold ready_now. cbn. rewrite Ep. right. reflexivity.
  - (* TCall: it awaits its call only *)
    destruct (pc (match find _ (call_tasks c) with Some p => snd p | None => task0 end)); try discriminate; try contradiction.
Qed.

(* create_connection: the transport calls connection_made by itself *)
Theorem made_waiter_arrives c : pc (t_finish c) = PF_Create -> made_waiter c = EPending ->
  exists c', step c LMadeWaiter = Some (c', []) /\ ready_now c' TFinish.
Proof.
  intros Ep Em. cbn [step]. rewrite Em. eexists. split; [reflexivity|]. unfold ready_now. cbn. rewrite Ep. right. discriminate.
Qed.

Theorem no_unguarded_await n e ka scr ls c os t :
  run (init n e ka scr) ls = Some (c, os) -> task_running (get_task c t) = true ->
  ready_now c t \/ (exists d, deadline_of c t = Some d /\ In d (armed_deadlines c)) \/
  (t = TFinish /\ pc (get_task c t) = PF_Create /\ made_waiter c = EPending).
Proof.
  intros E R. destruct (guard_meaning c t (every_await_guarded n e ka scr ls c os t E) R) as [H|[(d & H)|H]]; auto.
  right. left. exists d. split; [exact H|eapply deadline_is_armed; exact H].
Qed.
Theorem ready_task_resumes n e ka scr ls c os t :
  run (init n e ka scr) ls = Some (c, os) -> task_running (get_task c t) = true -> ready_now c t -> step c (LWake t) <> None.
Proof.
  intros E R Hr. destruct (reach_GA n e ka scr ls c os E) as [HC HG]. apply ready_can_wake; assumption.
Qed.
Theorem reached_deadline_fires n e ka scr ls c os t d :
  run (init n e ka scr) ls = Some (c, os) -> task_running (get_task c t) = true -> deadline_of c t = Some d -> d <= now c ->
  exists k c' o, step c (LTimer k) = Some (c', o) /\ ready_now c' t.
Proof.
  intros E R Hd Hle. destruct (reach_GA n e ka scr ls c os E) as [HC HG]. eapply due_deadline_fires; eassumption.
Qed.
