(* For C09: a cancellation ends disconnect() or a request/response call only when the caller cancelled that very operation.
   The invariant CI ties every awaited call to the one task that awaits it (owner), so that a cancelled future or a pending
   cancel flag is always traced back to an LCancel of that task (ghost flag user_cancelled).
   Every move of a label that neither runs finish_connection nor starts a call keeps CI (CI_step); those two register a call
   whose id is named beforehand and are followed function by function.  That a cancellation delivered to disconnect() or to a
   request is the caller's is read off the two wake-ups (wake_disc_cancel, wake_call_cancel). *)
From Coq Require Import NArith ZArith List Bool Lia PeanoNat.
From RecordUpdate Require Import RecordSet.
From Verif Require Import Generated.GenConstants Model.Conn Proofs.ConnMoves Proofs.ConnCalls Proofs.ConnErrors Proofs.ConnReason Proofs.ConnOutcome Proofs.ListFacts.
Import ListNotations RecordSetNotations.
Open Scope Z_scope.
Open Scope list_scope.

Definition awaited (p : tpc) : option nat := match p with PF_Hello cid | PD_Resp cid | PC_Wait cid => Some cid | _ => None end.

(* ConnMoves speaks of `awaited` in two more ways.  Task.cancel() cancels the call that the task `waits_for`: the same notion.
   The finally block ends the call that the task `awaits`: for the task of a request that is the call named by the task,
   whatever its program point stores; the invariant makes the two agree (CI_awaits). *)
Lemma waits_for_awaited p cid : waits_for p cid <-> awaited p = Some cid.
Proof.
  split; [intros [-> | [-> | ->]]; reflexivity|].
  destruct p; cbn [awaited]; intro E; try discriminate E; injection E as ->; unfold waits_for; auto.
Qed.

(* `CIs skip c`, the invariant: a call awaited by a task exists and is owned by that task (i_aw); a raised cancel flag, or the
   cancelled future of a call, of disconnect() or of a request goes with the caller's mark (i_mc, i_cc); the other clauses keep
   the ids in order.  `skip`: the task whose awaited call is being registered right now. *)
Record CIs (skip : tid -> Prop) (c : conn) : Prop := {
  i_f1 : F1 c;
  i_own : forall k x, In k (calls c) -> c_owner k = TCall x -> x = c_id k;
  i_tlt : Forall (fun p => (fst p < next_cid c)%nat \/ skip (TCall (fst p))) (call_tasks c);
  i_st : awaited (pc (t_start c)) = None;
  i_aw : forall t cid, t <> TStart -> ~ skip t -> awaited (pc (get_task c t)) = Some cid ->
         exists kk, get_call c cid = Some kk /\ c_owner kk = t;
  i_mc : forall t, utask t = true -> must_cancel (get_task c t) = true -> user_cancelled (get_task c t) = true;
  i_cc : forall k, In k (calls c) -> c_fut k = CCancelled -> utask (c_owner k) = true -> user_cancelled (get_task c (c_owner k)) = true }.
Definition CI := CIs (fun _ => False).

Lemma get_call_in c cid kk : get_call c cid = Some kk -> In kk (calls c) /\ c_id kk = cid.
Proof. unfold get_call. intro E. apply find_some in E. destruct E as [A B]. apply Nat.eqb_eq in B. auto. Qed.

Lemma CI_awaits c t cid : CI c -> awaits (pc (get_task c t)) t cid -> awaited (pc (get_task c t)) = Some cid.
Proof.
  intros H W. destruct (pc (get_task c t)) as [| | | | |x| |x|x|] eqn:Ep; cbn [awaits awaited] in *; try contradiction.
  - destruct W as [_ ->]. reflexivity.
  - destruct W as [_ ->]. reflexivity.
  - (* TCall cid at PC_Wait x: call x is owned by the task that awaits it, and a call owned by TCall cid has id cid *)
    subst t. destruct (i_aw _ _ H (TCall cid) x ltac:(discriminate) (fun F => F) ltac:(rewrite Ep; reflexivity)) as (k & G & Ow).
    destruct (get_call_in c x k G) as [Hin <-]. rewrite (i_own _ _ H k cid Hin Ow). reflexivity.
Qed.

Definition tid_eqb (a b : tid) : bool :=
  match a, b with
  | TStart, TStart | TFinish, TFinish | TDisc, TDisc => true
  | TCall x, TCall y => Nat.eqb x y
  | _, _ => false
  end.
Lemma tid_eqb_spec a b : tid_eqb a b = true <-> a = b.
Proof.
  destruct a, b; cbn; try (split; [discriminate|discriminate]); try tauto.
  rewrite Nat.eqb_eq. split; [intros ->; reflexivity|intro H; injection H; auto].
Qed.
Lemma tid_dec (a b : tid) : a = b \/ a <> b.
Proof. destruct (tid_eqb a b) eqn:E; [left; apply tid_eqb_spec; exact E|right; intro H; apply tid_eqb_spec in H; congruence]. Qed.

(* `S2 t`: the call table evolves pointwise and only the record of task t changes, benignly; such moves keep the invariant (CIs_S2) *)
Record S2 (t : tid) (c c' : conn) : Prop := {
  y_calls : callsrel (calls c) (calls c');
  y_next : next_cid c' = next_cid c;
  y_ids : map fst (call_tasks c') = map fst (call_tasks c);
  y_other : forall t', t' <> t -> get_task c' t' = get_task c t';
  y_mc : must_cancel (get_task c' t) = true -> must_cancel (get_task c t) = true;
  y_uc : user_cancelled (get_task c' t) = user_cancelled (get_task c t);
  y_pc : pc (get_task c' t) = pc (get_task c t) \/ awaited (pc (get_task c' t)) = None }.

Lemma get_task_S1 c c' t : S1 c c' -> get_task c' t = get_task c t.
Proof. intros [_ _ A B D E]. destruct t; cbn [get_task]; try assumption. rewrite D. reflexivity. Qed.
Lemma get_task_ab c c' t : ab c' = ab c -> get_task c' t = get_task c t.
Proof. intro E. apply get_task_S1, S1_ab, E. Qed.

Lemma S2_S1 t c c' : S1 c c' -> S2 t c c'.
Proof.
  intro H. pose proof (fun t' => get_task_S1 c c' t' H) as Q. destruct H as [A B D E F G].
  constructor; try assumption; try (rewrite Q; auto).
  - rewrite F. reflexivity.
  - intros t' _. apply Q.
Qed.
Lemma S2_ab t c c' : ab c' = ab c -> S2 t c c'.
Proof. intro E. apply S2_S1, S1_ab, E. Qed.
Lemma S2_refl t c : S2 t c c.
Proof. apply S2_ab. reflexivity. Qed.
Lemma S2_trans t a b c : S2 t a b -> S2 t b c -> S2 t a c.
Proof.
  intros [A1 A2 A3 A4 A5 A6 A7] [B1 B2 B3 B4 B5 B6 B7]. constructor; try congruence.
  - exact (F2_trans callrel callrel_trans _ _ _ A1 B1).
  - intros t' Hn. rewrite B4, A4; auto.
  - auto.
  - destruct B7 as [B7|B7]; [|right; exact B7]. rewrite B7. exact A7.
Qed.

Lemma find_fst_map (l : list (nat * task)) (f : nat * task -> nat * task) y :
  (forall p, fst (f p) = fst p) -> (forall p, fst p <> y -> f p = p) ->
  forall x, x <> y -> find (fun p => Nat.eqb (fst p) x) (map f l) = find (fun p => Nat.eqb (fst p) x) l.
Proof.
  intros Hf Hid x Hx. induction l as [|p l IHl]; cbn; [reflexivity|]. rewrite Hf.
  destruct (Nat.eqb (fst p) x) eqn:E; [|exact IHl].
  apply Nat.eqb_eq in E. rewrite Hid by congruence. reflexivity.
Qed.

Definition exists_task (c : conn) (t : tid) : Prop :=
  match t with TCall x => find (fun p => Nat.eqb (fst p) x) (call_tasks c) <> None | _ => True end.

Lemma set_task_facts c t k' : exists_task c t ->
  get_task (set_task c t k') t = k' /\
  (forall t', t' <> t -> get_task (set_task c t k') t' = get_task c t') /\
  calls (set_task c t k') = calls c /\ next_cid (set_task c t k') = next_cid c /\
  map fst (call_tasks (set_task c t k')) = map fst (call_tasks c).
Proof.
  intro Hex. split; [|split; [|split; [|split]]].
  - destruct t; cbn [set_task get_task]; try reflexivity.
    cbn. cbn in Hex. induction (call_tasks c) as [|p l IHl]; cbn in *; [contradiction|].
    destruct (Nat.eqb (fst p) cid) eqn:E; cbn; [rewrite Nat.eqb_refl; reflexivity|]. rewrite E. apply IHl. exact Hex.
  - intros t' Hn. destruct t, t'; try reflexivity; try contradiction. cbn [set_task get_task]. cbn.
    rewrite (find_fst_map _ _ cid); [reflexivity| | |congruence].
    + intro p. destruct (Nat.eqb _ _) eqn:E; [apply Nat.eqb_eq in E; cbn; auto|reflexivity].
    + intros p Hp'. apply Nat.eqb_neq in Hp'. rewrite Hp'. reflexivity.
  - destruct t; reflexivity.
  - destruct t; reflexivity.
  - destruct t; try reflexivity. cbn. rewrite map_map. apply map_ext. intro p. destruct (Nat.eqb _ _) eqn:E; [|reflexivity].
    apply Nat.eqb_eq in E. cbn. auto.
Qed.

Lemma S2_set_task c t k' :
  (must_cancel k' = true -> must_cancel (get_task c t) = true) ->
  user_cancelled k' = user_cancelled (get_task c t) ->
  (pc k' = pc (get_task c t) \/ awaited (pc k') = None) ->
  exists_task c t ->
  S2 t c (set_task c t k').
Proof.
  intros Hm Hu Hp Hex. destruct (set_task_facts c t k' Hex) as (Hself & Hoth & Hc & Hn & Hi).
  constructor; try (rewrite Hself; assumption); try assumption.
  rewrite Hc. apply (F2_refl callrel callrel_refl).
Qed.

(* i_tlt reads only the ids of the call tasks *)
Lemma ids_Forall (P : nat -> Prop) (l l' : list (nat * task)) :
  map fst l' = map fst l -> Forall (fun p => P (fst p)) l -> Forall (fun p => P (fst p)) l'.
Proof. intros E H. apply Forall_map. rewrite E. apply Forall_map. exact H. Qed.

Lemma CIs_S2 skip t c c' : S2 t c c' -> CIs skip c -> CIs skip c'.
Proof.
  intros [Sc Sn Si So Sm Su Sp] [F O T St A M Cc].
  constructor.
  - eapply F1_S0; [constructor; eassumption|exact F].
  - intros k' x Hin Ho. destruct (F2_in callrel _ _ _ Sc Hin) as (k & Hk & (E1 & E2 & _)). rewrite E1. apply (O k x Hk). congruence.
  - rewrite Sn. exact (ids_Forall (fun x => (x < next_cid c)%nat \/ skip (TCall x)) _ _ Si T).
  - destruct (tid_dec t TStart) as [->|Hn].
    + change (t_start c') with (get_task c' TStart). destruct Sp as [Sp|Sp]; [rewrite Sp; exact St|exact Sp].
    + change (t_start c') with (get_task c' TStart). rewrite So by congruence. exact St.
  - intros t' cid Hn Hs Ha.
    assert (Ha' : awaited (pc (get_task c t')) = Some cid).
    { destruct (tid_dec t' t) as [->|Hd]; [|rewrite So in Ha by exact Hd; exact Ha].
      destruct Sp as [Sp|Sp]; [rewrite Sp in Ha; exact Ha|rewrite Sp in Ha; discriminate]. }
    destruct (A t' cid Hn Hs Ha') as (kk & Eg & Eo).
    destruct (F2_find callrel callrel_id _ _ cid kk Sc Eg) as (kk' & Eg' & _ & Q & _). exists kk'. split; [exact Eg'|congruence].
  - intros t' Hu Hm. destruct (tid_dec t' t) as [->|Hd].
    + rewrite Su. apply M; auto.
    + rewrite So in * by exact Hd. auto.
  - intros k' Hin Hf Hu. destruct (F2_in callrel _ _ _ Sc Hin) as (k & Hk & (E1 & E2 & E3)).
    rewrite E2 in *.
    assert (Hc : c_fut k = CCancelled).
    { destruct E3 as [E3|[_ E3]]; [congruence|]. rewrite Hf in E3. destruct E3 as [E3|[E3|[l E3]]]; discriminate. }
    specialize (Cc k Hk Hc Hu). destruct (tid_dec (c_owner k) t) as [Hd|Hd].
    + rewrite Hd in *. rewrite Su. exact Cc.
    + rewrite So by exact Hd. exact Cc.
Qed.

Lemma CI_S2 t c c' : S2 t c c' -> CI c -> CI c'.
Proof. apply CIs_S2. Qed.

Lemma exists_task_of c t : get_task c t <> task0 -> exists_task c t.
Proof. destruct t; cbn; auto. destruct (find _ _); [discriminate|]. intro H. contradiction. Qed.
Lemma pc_exists_task c t : pc (get_task c t) <> PNone -> exists_task c t.
Proof. intro H. apply exists_task_of. intro Q. rewrite Q in H. apply H. reflexivity. Qed.
Lemma task_running_exists c t : task_running (get_task c t) = true -> exists_task c t.
Proof. intro H. apply pc_exists_task. intro Q. unfold task_running in H. rewrite Q in H. discriminate. Qed.

Lemma CIs_set_task skip c t k' : CIs skip c -> exists_task c t ->
  (t = TStart -> awaited (pc k') = None) ->
  (forall cid, t <> TStart -> ~ skip t -> awaited (pc k') = Some cid -> exists kk, get_call c cid = Some kk /\ c_owner kk = t) ->
  (utask t = true -> must_cancel k' = true -> user_cancelled k' = true) ->
  (utask t = true -> user_cancelled (get_task c t) = true -> user_cancelled k' = true) ->
  CIs skip (set_task c t k').
Proof.
  intros [F O T St A M Cc] Hex Hst Haw Hmc Huc.
  destruct (set_task_facts c t k' Hex) as (Hself & Hoth & Hc & Hnx & Hi).
  constructor.
  - exact (F1_ac _ _ (ac_set_task c t k') F).
  - rewrite Hc. exact O.
  - rewrite Hnx. exact (ids_Forall (fun x => (x < next_cid c)%nat \/ skip (TCall x)) _ _ Hi T).
  - change (t_start (set_task c t k')) with (get_task (set_task c t k') TStart).
    destruct (tid_dec TStart t) as [<-|Hd]; [rewrite Hself; auto|rewrite Hoth by exact Hd; exact St].
  - intros t' cid Hn Hs Ha. unfold get_call. rewrite Hc. destruct (tid_dec t' t) as [->|Hd].
    + rewrite Hself in Ha. exact (Haw cid Hn Hs Ha).
    + rewrite Hoth in Ha by exact Hd. exact (A t' cid Hn Hs Ha).
  - intros t' Hu Hm. destruct (tid_dec t' t) as [->|Hd].
    + rewrite Hself in Hm |- *. auto.
    + rewrite Hoth in Hm |- * by exact Hd. auto.
  - rewrite Hc. intros k Hin Hf Hu. specialize (Cc k Hin Hf Hu). destruct (tid_dec (c_owner k) t) as [Hd|Hd].
    + rewrite Hd in *. rewrite Hself. auto.
    + rewrite Hoth by exact Hd. exact Cc.
Qed.

Lemma CI_mark_cancelled c t : CI c -> exists_task c t -> CI (set_task c t (get_task c t <| user_cancelled := true |>)).
Proof.
  intros H X. apply CIs_set_task; try assumption; try reflexivity.
  - intros ->. exact (i_st _ _ H).
  - intros cid. exact (i_aw _ _ H t cid).
Qed.

(* cancel requests taken, asyncio.timeout and interrupt left: the flag does not go up *)
Lemma S2_tmove c t k' : tmove (get_task c t) k' -> S2 t c (set_task c t k').
Proof.
  intro H. apply S2_set_task; [destruct H; [discriminate|exact (fun Q => Q)..]|destruct H; reflexivity|left; apply tmove_pc, H|].
  apply exists_task_of. intro Q. rewrite Q in H. inversion H; discriminate.
Qed.

Lemma S2_take_cancel c t : S2 t c (fst (take_cancel c t)).
Proof.
  unfold take_cancel. destruct (must_cancel (get_task c t)) eqn:E; cbn [fst]; [|apply S2_refl].
  apply S2_tmove, TmTake, E.
Qed.
Lemma S2_interrupt_exit c t e : S2 t c (fst (interrupt_exit c t e)).
Proof.
  unfold interrupt_exit. destruct (interrupted (get_task c t)) eqn:E; [|apply S2_refl].
  destruct e; cbn [fst]; try apply S2_refl.
  destruct (Nat.eqb _ 0); cbn [fst]; exact (S2_tmove c t _ (TmInterruptExit _ E)).
Qed.
Lemma S2_pc_none t c k' : awaited (pc k') = None -> must_cancel k' = must_cancel (get_task c t) ->
  user_cancelled k' = user_cancelled (get_task c t) -> exists_task c t -> S2 t c (set_task c t k').
Proof. intros A B D X. apply S2_set_task; auto. rewrite B. auto. Qed.

(* the task of a call that does not exist: set_task finds nothing to replace *)
Lemma set_task_absent c t k' : ~ exists_task c t -> ab (set_task c t k') = ab c.
Proof.
  destruct t; cbn [exists_task]; intro N; try (exfalso; exact (N I)).
  assert (E : map (fun p : nat * task => if Nat.eqb (fst p) cid then (cid, k') else p) (call_tasks c) = call_tasks c).
  { induction (call_tasks c) as [|p l IHl]; [reflexivity|]. cbn [map find] in *.
    destruct (Nat.eqb (fst p) cid); [exfalso; apply N; discriminate|]. rewrite (IHl N). reflexivity. }
  unfold ab. replace (call_tasks (set_task c (TCall cid) k')) with (call_tasks c) by (symmetry; exact E). reflexivity.
Qed.
Lemma exists_task_dec c t : exists_task c t \/ ~ exists_task c t.
Proof. destruct t; cbn [exists_task]; auto. destruct (find _ _); [left; discriminate|right; intro Q; exact (Q eq_refl)]. Qed.

Lemma S2_finish_task c t r : S2 t c (fst (finish_task c t r)).
Proof. destruct (exists_task_dec c t) as [X|N]; [apply S2_pc_none; try reflexivity; exact X|apply S2_ab, set_task_absent, N]. Qed.

Lemma S2_cleanup t c : S2 t c (fst (cleanup c)).
Proof. apply S2_S1, S1_cleanup. Qed.

(* cleanup, then the task ends: the tail that ConnMoves.path_cleanup_finish walks *)
Lemma S2_cleanup_finish c t (mk : conn -> tres) (post : conn -> conn) : (forall x, ab (post x) = ab x) ->
  S2 t c (fst (let '(c3, o) := cleanup c in let '(c4, o2) := finish_task (post c3) t (mk c3) in (c4, o ++ o2))).
Proof.
  intros Hp. pose proof (S2_cleanup t c) as H. destruct (cleanup c) as [c3 o]. cbn [fst] in H.
  assert (H1 : S2 t c (post c3)) by (eapply S2_trans; [exact H|apply S2_ab, Hp]).
  pose proof (S2_finish_task (post c3) t (mk c3)) as H2.
  destruct (finish_task (post c3) t (mk c3)) as [c4 o2]. cbn [fst] in *. eapply S2_trans; eassumption.
Qed.

Lemma S2_start_tcp_attempt c g : S2 TStart c (start_tcp_attempt c g).
Proof.
  unfold start_tcp_attempt.
  match goal with |- S2 _ _ (set_task ?x _ _) => apply (S2_trans _ _ x); [apply S2_ab; reflexivity|] end.
  apply S2_pc_none; try reflexivity; exact I.
Qed.

Lemma S2_finish_fail c e : S2 TFinish c (fst (finish_fail c e)).
Proof.
  unfold finish_fail. pose proof (S2_interrupt_exit c TFinish e) as H0. destruct (interrupt_exit c TFinish e) as [c0 e1]. cbn [fst] in H0.
  eapply S2_trans; [exact H0|]. eapply S2_trans; [apply (S2_ab _ c0 (c0 <| intr_finish := IExited |> <| hs_timer := None |>)); reflexivity|].
  exact (S2_cleanup_finish _ TFinish (fun c2 => TRaise (wrap_fatal c2 e1)) set_finish_future ab_set_finish_future).
Qed.
Lemma S2_finish_success c : S2 TFinish c (fst (finish_success c)).
Proof.
  unfold finish_success. set (c2 := set_finish_future (c <| intr_finish := IExited |>)).
  assert (H2 : S2 TFinish c c2) by (apply S2_ab; unfold c2; rewrite ab_set_finish_future; reflexivity).
  eapply S2_trans; [exact H2|].
  destruct (cs c2) eqn:Ecs;
    lazymatch type of Ecs with
    | _ = Closed => exact (S2_cleanup_finish c2 TFinish (fun c3 => TRaise (wrap_fatal c3 Interrupted)) (fun x => x) (fun x => eq_refl))
    | _ => (* CONNECTED *) eapply S2_trans; [|apply S2_finish_task]; apply S2_ab; reflexivity
    end.
Qed.

Lemma skip_weaken (P Q : tid -> Prop) c : (forall t, P t -> Q t) -> CIs P c -> CIs Q c.
Proof.
  intros H [F O T St A M Cc]. constructor; auto.
  eapply Forall_impl; [|exact T]. cbn. intros a [W|W]; auto.
Qed.

Lemma find_app_some {A} (f : A -> bool) l l' x : find f l = Some x -> find f (l ++ l') = Some x.
Proof. intro H. rewrite find_app, H. reflexivity. Qed.
Lemma find_app_none {A} (f : A -> bool) l l' : find f l = None -> find f (l ++ l') = find f l'.
Proof. intro H. rewrite find_app, H. reflexivity. Qed.

Lemma next_cid_fresh c : F1 c -> get_call c (next_cid c) = None.
Proof.
  intros [_ L _]. apply find_all_false. intros k Hin. rewrite Forall_forall in L. specialize (L k Hin). apply Nat.eqb_neq. cbn in L. lia.
Qed.

Lemma get_call_register_call c owner types ap st tmo : F1 c ->
  get_call (register_call c owner types ap st tmo) (next_cid c) = Some (new_call c owner types ap st tmo).
Proof.
  intro F. unfold get_call. rewrite calls_register_call, (find_app_none _ _ _ (next_cid_fresh c F)). cbn. rewrite Nat.eqb_refl. reflexivity.
Qed.

Lemma CIs_new_call skip c owner types ap st tmo : CIs skip c -> (forall x, owner = TCall x -> x = next_cid c) ->
  CIs skip (c <| calls := calls c ++ [new_call c owner types ap st tmo] |> <| next_cid := S (next_cid c) |> <| waiters := waiters c ++ [next_cid c] |>).
Proof.
  intros [F O T St A M Cc] Ho. match goal with |- CIs _ ?y => set (c' := y) end.
  assert (Tk : forall t, get_task c' t = get_task c t) by (intro t; destruct t; reflexivity).
  assert (Hnew : forall k0, In k0 (calls c') -> In k0 (calls c) \/ k0 = new_call c owner types ap st tmo).
  { intros k0 Hin. apply in_app_or in Hin. destruct Hin as [Hin|[<-|[]]]; auto. }
  constructor.
  - exact (F1_new_call c owner types ap st tmo F).
  - intros k0 x Hin Hx. destruct (Hnew k0 Hin) as [Hin'| ->]; [exact (O k0 x Hin' Hx)|exact (Ho x Hx)].
  - cbn. eapply Forall_impl; [|exact T]. cbn. intros a0 [Q|Q]; [left; lia|right; exact Q].
  - exact St.
  - intros t cid Hn Hs Ha. rewrite Tk in Ha. destruct (A t cid Hn Hs Ha) as (kk & Eg & Eo).
    exists kk. split; [|exact Eo]. apply find_app_some. exact Eg.
  - intros t Hu Hm. rewrite Tk in *. auto.
  - intros k0 Hin Hf Hu. rewrite Tk. destruct (Hnew k0 Hin) as [Hin'| ->]; [exact (Cc k0 Hin' Hf Hu)|discriminate Hf].
Qed.

Lemma CIs_register_call skip c owner types ap st tmo : CIs skip c -> (forall x, owner = TCall x -> x = next_cid c) ->
  CIs skip (register_call c owner types ap st tmo) /\
  (forall t, get_task (register_call c owner types ap st tmo) t = get_task c t) /\
  get_call (register_call c owner types ap st tmo) (next_cid c) = Some (new_call c owner types ap st tmo).
Proof.
  intros H Ho. pose proof (CIs_new_call skip c owner types ap st tmo H Ho) as C2.
  pose proof (get_call_register_call c owner types ap st tmo (i_f1 _ _ H)) as G. unfold register_call.
  match type of C2 with CIs _ ?y => set (c2 := y) in *; pose proof (ab_fold_add types (HCall (next_cid c)) c2) as E3 end.
  split; [exact (CIs_S2 skip TStart _ _ (S2_ab _ _ _ E3) C2)|]. split; [|exact G].
  intro t. rewrite (get_task_ab _ _ t E3). destruct t; reflexivity.
Qed.

Lemma CIs_call_begin skip c owner send types ap st tmo :
  CIs skip c -> (forall x, owner = TCall x -> x = next_cid c) ->
  let r := call_begin c owner send types ap st tmo in
  CIs skip (fst (fst (fst r))) /\
  (forall t, get_task (fst (fst (fst r))) t = get_task c t) /\
  (snd (fst r) = None -> snd r = next_cid c /\ exists kk, get_call (fst (fst (fst r))) (next_cid c) = Some kk /\ c_owner kk = owner).
Proof.
  intros H Ho. unfold call_begin. pose proof (S1_send_messages c send) as H1.
  destruct (send_messages c send) as [[c1 o] ex]. cbn [fst] in H1.
  pose proof (CIs_S2 skip TStart _ _ (S2_S1 TStart _ _ H1) H) as H1'.
  pose proof (s_next _ _ H1) as Nx.
  destruct ex as [e|]; cbn [fst snd].
  - split; [exact H1'|]. split; [intro t; apply get_task_S1, H1|discriminate].
  - rewrite <- Nx in Ho. destruct (CIs_register_call skip c1 owner types ap st tmo H1' Ho) as (C & Tk & G).
    split; [exact C|]. split; [intro t; rewrite <- (get_task_S1 _ _ t H1); apply Tk|].
    intros _. split; [exact Nx|]. exists (new_call c1 owner types ap st tmo). split; [rewrite <- Nx; exact G|reflexivity].
Qed.

Lemma CIs_set_pc (skip : tid -> Prop) c t k' :
  CIs skip c -> skip t -> t <> TStart -> exists_task c t ->
  must_cancel k' = must_cancel (get_task c t) -> user_cancelled k' = user_cancelled (get_task c t) ->
  CIs skip (set_task c t k').
Proof.
  intros H Hs Hn Hex Hm Hu. apply CIs_set_task; try assumption; try contradiction.
  - intros Ut Q. rewrite Hu. apply (i_mc _ _ H t Ut). rewrite <- Hm. exact Q.
  - intros _ Q. rewrite Hu. exact Q.
Qed.

Lemma CIs_unskip c t : CIs (eq t) c -> (forall x, t = TCall x -> (x < next_cid c)%nat) ->
  (forall cid, awaited (pc (get_task c t)) = Some cid -> exists kk, get_call c cid = Some kk /\ c_owner kk = t) -> CI c.
Proof.
  intros [F O T St A M Cc] Hx H. constructor; auto.
  - eapply Forall_impl; [|exact T]. cbn. intros a [Q|Q]; [left; exact Q|left; apply Hx; exact Q].
  - intros t' cid Hn _ Ha. destruct (tid_dec t t') as [<-|Hd]; [apply H; exact Ha|]. apply A; auto.
Qed.
Lemma CI_skip c t : CI c -> CIs (eq t) c.
Proof. apply skip_weaken. intros ? []. Qed.
Lemma CIs_unskip_none c t : CIs (eq t) c -> (forall x, t = TCall x -> (x < next_cid c)%nat) -> awaited (pc (get_task c t)) = None -> CI c.
Proof. intros H Hx E. apply (CIs_unskip c t H Hx). intros cid Ha. rewrite E in Ha. discriminate. Qed.

Lemma S2_get_task_pc t c c' : S2 t c c' -> awaited (pc (get_task c t)) = None -> awaited (pc (get_task c' t)) = None.
Proof. intros [_ _ _ _ _ _ [E|E]] H; [rewrite E; exact H|exact E]. Qed.

Lemma finish_task_pc c t r : exists_task c t -> awaited (pc (get_task (fst (finish_task c t r)) t)) = None.
Proof.
  intro X. unfold finish_task. cbn [fst]. destruct (set_task_facts c t (get_task c t <| pc := PDone r |>) X) as (E & _). rewrite E. reflexivity.
Qed.

Lemma finish_fail_pc c e : awaited (pc (get_task (fst (finish_fail c e)) TFinish)) = None.
Proof.
  unfold finish_fail. destruct (interrupt_exit c TFinish e) as [c0 e1].
  destruct (cleanup _) as [c2 o].
  match goal with |- context [finish_task ?x TFinish ?r] => pose proof (finish_task_pc x TFinish r I) as H; destruct (finish_task x TFinish r) as [c4 o2] end.
  exact H.
Qed.

Lemma ab_internal_handlers c : ab (internal_handlers c) = ab c.
Proof. unfold internal_handlers. rewrite !ab_add. reflexivity. Qed.

(* HANDSHAKE_COMPLETE: the task names the call it is about to register, registers it, and awaits it (or fails) *)
Lemma finish_after_ready_open c0 send types ap st tmo :
  CI c0 ->
  let c0' := set_task c0 TFinish (get_task c0 TFinish <| pc := PF_Hello (next_cid c0) |>) in
  let x := internal_handlers (set_state c0' HsDone) in
  CI (fst (let '(c2, o, ex, cid) := call_begin x TFinish send types ap st tmo in
           match ex with
           | Some e => let '(c3, o3) := finish_fail c2 e in (c3, o ++ o3)
           | None => (c2, o)
           end)).
Proof.
  intros H0 c0' x.
  assert (H1 : CIs (eq TFinish) c0') by (apply CIs_set_pc; [apply CI_skip; exact H0|reflexivity|discriminate|exact I|reflexivity|reflexivity]).
  assert (Ex : ab x = ab c0') by (unfold x; rewrite ab_internal_handlers; reflexivity).
  assert (H1' : CIs (eq TFinish) x) by (apply (CIs_S2 _ TStart c0' x); [apply S2_ab; exact Ex|exact H1]).
  assert (Hnx : next_cid x = next_cid c0) by exact (s_next _ _ (S1_ab _ _ Ex)).
  assert (Hpc : pc (get_task x TFinish) = PF_Hello (next_cid c0)) by (rewrite (get_task_ab c0' x TFinish Ex); reflexivity).
  destruct (CIs_call_begin (eq TFinish) x TFinish send types ap st tmo H1' ltac:(intros ? Q; discriminate Q)) as (H2 & Tk & Hs).
  destruct (call_begin x TFinish send types ap st tmo) as [[[c2 o] ex] cid]. cbn [fst snd] in H2, Tk, Hs.
  destruct ex as [e|].
  - pose proof (S2_finish_fail c2 e) as S. pose proof (finish_fail_pc c2 e) as P. destruct (finish_fail c2 e) as [c3 o3]. cbn [fst] in *.
    apply (CIs_unskip_none c3 TFinish); [apply (CIs_S2 _ TFinish c2 c3); assumption|intros ? Q; discriminate Q|exact P].
  - cbn [fst]. apply (CIs_unskip c2 TFinish H2); [intros ? Q; discriminate Q|]. intros cid' Ha. rewrite Tk, Hpc in Ha. cbn in Ha. injection Ha as <-.
    destruct (Hs eq_refl) as (_ & kk & G & O). rewrite Hnx in G. eauto.
Qed.

Lemma CI_finish_after_ready c : CI c -> CI (fst (finish_after_ready c)).
Proof.
  intro H. unfold finish_after_ready. set (c0 := c <| hs_timer := None |>).
  assert (H0 : CI c0) by (apply (CI_S2 TFinish c c0); [apply S2_ab; reflexivity|exact H]).
  destruct (cs c0) eqn:Ecs;
    lazymatch type of Ecs with
    | _ = Closed => apply (CI_S2 TFinish c0); [apply S2_finish_fail|exact H0]
    | _ => apply (finish_after_ready_open c0); exact H0
    end.
Qed.

Lemma CI_wake_finish c c' o : wake_finish c = Some (c', o) -> CI c -> CI c'.
Proof.
  unfold wake_finish. intros E H.
  (* after moves of its own, the phase fails, goes on past the handshake, or succeeds *)
  assert (FF : forall x e, S2 TFinish c x -> CI (fst (finish_fail x e))).
  { intros x e S. exact (CI_S2 _ _ _ (S2_trans _ _ _ _ S (S2_finish_fail x e)) H). }
  assert (FR : forall x, S2 TFinish c x -> CI (fst (finish_after_ready x))).
  { intros x S. exact (CI_finish_after_ready x (CI_S2 _ _ _ S H)). }
  destruct (pc (get_task c TFinish)) as [| | | | |cid| | | |] eqn:Epc; try discriminate.
  - (* PF_Create *)
    destruct (must_cancel (get_task c TFinish) || negb match made_waiter c with EPending => true | _ => false end); [|discriminate].
    pose proof (S2_take_cancel c TFinish) as E1. destruct (take_cancel c TFinish) as [c1 mc]. cbn [fst] in E1.
    match type of E with match ?d with _ => _ end = _ => destruct d as [|e] end.
    + set (c2 := c1 <| helper := helper_obj c1 |> <| hs_timer := Some (now c1 + HANDSHAKE_TIMEOUT) |>) in *.
      assert (S : S2 TFinish c c2) by (eapply S2_trans; [exact E1|apply S2_ab; reflexivity]).
      destruct (ready c2); rewrite (some_pair_fst _ _ _ E); try exact (FF _ _ S); try exact (FR _ S).
      cbn [fst]. apply (CI_S2 TFinish c); [|exact H]. eapply S2_trans; [exact S|].
      apply S2_pc_none; try reflexivity; exact I.
    + match type of E with context [finish_fail ?x e] => set (c2 := x) in * end.
      assert (S : S2 TFinish c c2) by (eapply S2_trans; [exact E1|apply S2_ab; unfold c2; destruct (transport c1); reflexivity]).
      pose proof (FF c2 e S) as B. destruct (finish_fail c2 e) as [c3 o3]. apply some_pair_inv in E. destruct E as [<- _]. exact B.
  - (* PF_Ready *)
    destruct (must_cancel (get_task c TFinish) || negb match ready c with RPending => true | _ => false end); [|discriminate].
    pose proof (S2_take_cancel c TFinish) as E1. destruct (take_cancel c TFinish) as [c1 mc]. cbn [fst] in E1.
    destruct mc; [|destruct (ready c1)]; rewrite (some_pair_fst _ _ _ E); first [exact (FF _ _ E1) | exact (FR _ E1)].
  - (* PF_Hello *)
    destruct (get_call c cid) as [kk|]; [|discriminate].
    destruct (must_cancel (get_task c TFinish) || cfut_done (c_fut kk)); [|discriminate].
    pose proof (S2_take_cancel c TFinish) as E1. destruct (take_cancel c TFinish) as [c1 mc]. cbn [fst] in E1.
    assert (S : S2 TFinish c (call_finally c1 cid)) by (eapply S2_trans; [exact E1|apply S2_S1, S1_call_finally]).
    match type of E with match ?d with _ => _ end = _ => destruct d as [|e] end; [destruct (check_hello_login _ _)|];
      rewrite (some_pair_fst _ _ _ E); try exact (FF _ _ S).
    exact (CI_S2 _ _ _ (S2_trans _ _ _ _ S (S2_finish_success _)) H).
Qed.

Definition cancel_ok (c : conn) (o : list obs) : Prop :=
  forall t, In (OTaskDone t (TRaise CancelledErr)) o -> utask t = true -> user_cancelled (get_task c t) = true.
Definition no_cancel (o : list obs) : Prop := forall t, ~ In (OTaskDone t (TRaise CancelledErr)) o.

Lemma no_cancel_nodone o : no_done o -> no_cancel o.
Proof. intros H t Hin. exact (H _ _ Hin). Qed.
Lemma no_cancel_app a b : no_cancel a -> no_cancel b -> no_cancel (a ++ b).
Proof. intros A B t Hin. apply in_app_or in Hin. destruct Hin as [Hin|Hin]; [exact (A t Hin)|exact (B t Hin)]. Qed.
Lemma no_cancel_finish c t r : r <> TRaise CancelledErr -> no_cancel (snd (finish_task c t r)).
Proof. intros H t' [E|[]]. injection E as _ E2. congruence. Qed.
Lemma no_cancel_ok c o : no_cancel o -> cancel_ok c o.
Proof. intros H t Hin. exfalso. exact (H t Hin). Qed.
Lemma cancel_ok_finish c0 c t r : (r = TRaise CancelledErr -> utask t = true -> user_cancelled (get_task c0 t) = true) ->
  cancel_ok c0 (snd (finish_task c t r)).
Proof. intros H t' [E|[]] Hu. injection E as E1 E2. subst t'. apply H; auto. Qed.

(* a task ends only under a label that runs it *)
Lemma cancel_ok_runs l c o c' : spath l c o c' -> (forall t, runs l t -> utask t = false) -> cancel_ok c o.
Proof. intros P Hq t Hin Hu. rewrite (Hq t (done_runs_path l c o c' P t _ Hin)) in Hu. discriminate. Qed.

Lemma no_cancel_disc_close c :
  no_cancel (snd (let '(c3, o3) := cleanup c in let '(c4, o4) := finish_task c3 TDisc TOk in (c4, o3 ++ o4))).
Proof.
  pose proof (no_done_cleanup c) as D3. destruct (cleanup c) as [c3 o3].
  pose proof (no_cancel_finish c3 TDisc TOk ltac:(discriminate)) as O4. destruct (finish_task c3 TDisc TOk) as [c4 o4].
  apply no_cancel_app; [apply no_cancel_nodone; exact D3|exact O4].
Qed.

Lemma no_cancel_disconnect_after_wait c : no_cancel (snd (disconnect_after_wait c)).
Proof.
  unfold disconnect_after_wait. set (c1 := c <| expected_disconnect := true |>).
  destruct (handshake_complete c1); [|exact (no_cancel_disc_close c1)].
  pose proof (no_done_call_begin c1 TDisc [T_DISC_REQ] [T_DISC_RESP] PAny PAny DISCONNECT_RESPONSE_TIMEOUT) as D2.
  pose proof (call_begin_exc c1 TDisc [T_DISC_REQ] [T_DISC_RESP] PAny PAny DISCONNECT_RESPONSE_TIMEOUT) as X2.
  destruct (call_begin c1 TDisc [T_DISC_REQ] [T_DISC_RESP] PAny PAny DISCONNECT_RESPONSE_TIMEOUT) as [[[c2 o] ex] cid].
  cbn [fst snd] in D2, X2. destruct ex as [e|]; [|apply no_cancel_nodone; exact D2].
  destruct X2 as [l ->]. pose proof (no_cancel_disc_close c2) as CF. cbn zeta in CF.
  destruct (cleanup c2) as [c3 o3]. destruct (finish_task c3 TDisc TOk) as [c4 o4].
  apply no_cancel_app; [apply no_cancel_nodone; exact D2|exact CF].
Qed.

Lemma take_cancel_flag c t : snd (take_cancel c t) = must_cancel (get_task c t).
Proof. unfold take_cancel. destruct (must_cancel (get_task c t)); reflexivity. Qed.

(* a cancelled outcome of the awaiting task t: the cancel flag, or the cancelled future of the call it owns *)
Lemma cancelled_outcome_ok c t cid kk :
  CI c -> utask t = true -> t <> TStart -> awaited (pc (get_task c t)) = Some cid -> get_call c cid = Some kk ->
  must_cancel (get_task c t) || cfut_done (c_fut kk) = true ->
  (if snd (take_cancel c t) then DExc CancelledErr else deliver_cfut (c_fut kk)) = DExc CancelledErr -> user_cancelled (get_task c t) = true.
Proof.
  intros [F O T St A M Cc] Hu Hn Ha G Hd E. rewrite take_cancel_flag in E.
  destruct (must_cancel (get_task c t)) eqn:Em.
  - apply M; auto.
  - cbn [orb] in Hd. destruct (A t cid Hn (fun F => F) Ha) as (kk' & G' & Ow). rewrite G in G'. injection G' as <-.
    destruct (get_call_in c cid kk G) as [Hin _].
    assert (Hf : c_fut kk = CCancelled).
    { pose proof (F1_get_call c cid kk F G) as Fk. unfold fut_ok in Fk.
      destruct (c_fut kk) eqn:Ef; cbn in *; try discriminate; try reflexivity.
      destruct (Fk e eq_refl) as [->|[l ->]]; cbn in E; discriminate. }
    rewrite <- Ow. apply (Cc kk Hin Hf). rewrite Ow. exact Hu.
Qed.

(* disconnect() ends with a cancellation only when the caller's request was pending in the task, or had cancelled the call
   that the task awaited *)
Lemma wake_disc_cancel c c' o : wake_disc c = Some (c', o) -> CI c -> cancel_ok c o.
Proof.
  unfold wake_disc. intros E H.
  assert (T2 : forall x e, (e = CancelledErr -> user_cancelled (get_task c TDisc) = true) ->
             Some (finish_task x TDisc (TRaise e)) = Some (c', o) -> cancel_ok c o).
  { intros x e Hc Er. rewrite (some_pair_snd _ _ _ Er). apply cancel_ok_finish. intros Q _. injection Q as ->. apply Hc. reflexivity. }
  destruct (pc (get_task c TDisc)) as [| | | | | | |cid| |] eqn:Epc; try discriminate.
  - (* PD_Wait *)
    destruct (must_cancel (get_task c TDisc) || disc_wait_done c); [|discriminate].
    pose proof (take_cancel_flag c TDisc) as Fl. destruct (take_cancel c TDisc) as [c1 mc]. cbn [snd] in Fl.
    destruct mc.
    + refine (T2 _ CancelledErr _ E). intros _. apply (i_mc _ _ H TDisc eq_refl). symmetry. exact Fl.
    + rewrite (some_pair_snd _ _ _ E). apply no_cancel_ok, no_cancel_disconnect_after_wait.
  - (* PD_Resp *)
    destruct (get_call c cid) as [kk|] eqn:Eg; [|discriminate].
    destruct (must_cancel (get_task c TDisc) || cfut_done (c_fut kk)) eqn:Egd; [|discriminate].
    pose proof (cancelled_outcome_ok c TDisc cid kk H eq_refl ltac:(discriminate) ltac:(rewrite Epc; reflexivity) Eg Egd) as CO.
    destruct (take_cancel c TDisc) as [c1 mc]. cbn [snd] in CO.
    set (c2 := call_finally c1 cid) in *.
    assert (T1 : (let '(c3, o) := cleanup c2 in let '(c4, o2) := finish_task c3 TDisc TOk in Some (c4, o ++ o2)) = Some (c', o) -> cancel_ok c o).
    { intro Er. pose proof (no_cancel_disc_close c2) as CF. cbn zeta in CF.
      destruct (cleanup c2) as [c3 o3]. destruct (finish_task c3 TDisc TOk) as [c4 o4].
      apply some_pair_inv in Er. destruct Er as [_ <-]. apply no_cancel_ok, CF. }
    destruct (if mc then DExc CancelledErr else deliver_cfut (c_fut kk)) as [|e] eqn:Ed; [exact (T1 E)|].
    destruct e; try exact (T1 E); try (refine (T2 _ _ _ E); intro Q; discriminate Q).
    refine (T2 _ _ _ E). intros _. apply CO. reflexivity.
Qed.

Lemma uniq_id (l : list call) k1 k2 : NoDup (map c_id l) -> In k1 l -> In k2 l -> c_id k1 = c_id k2 -> k1 = k2.
Proof.
  induction l as [|a l IHl]; intros U H1 H2 E; [destruct H1|]. cbn in U. apply NoDup_cons_iff in U. destruct U as [Hn U'].
  destruct H1 as [->|H1], H2 as [->|H2]; auto.
  - exfalso. apply Hn. rewrite E. apply in_map. exact H2.
  - exfalso. apply Hn. rewrite <- E. apply in_map. exact H1.
Qed.

Lemma get_call_of c k : NoDup (map c_id (calls c)) -> In k (calls c) -> get_call c (c_id k) = Some k.
Proof.
  intros U Hin. destruct (get_call c (c_id k)) as [k'|] eqn:E.
  - destruct (get_call_in c _ k' E) as [Hin' Hid]. f_equal. exact (uniq_id (calls c) k' k U Hin' Hin Hid).
  - unfold get_call in E. pose proof (find_none _ _ E k Hin) as Q. cbn beta in Q. rewrite Nat.eqb_refl in Q. discriminate.
Qed.

Lemma wake_call_cancel c cid c' o : wake_call c cid = Some (c', o) -> CI c -> cancel_ok c o.
Proof.
  unfold wake_call. intros E H.
  destruct (pc (get_task c (TCall cid))) as [| | | | | | | |x|] eqn:Epc; try discriminate.
  destruct (get_call c cid) as [kk|] eqn:Eg; [|discriminate].
  destruct (must_cancel (get_task c (TCall cid)) || cfut_done (c_fut kk)) eqn:Egd; [|discriminate].
  (* the call that the program point stores is the one looked up under the id of the task *)
  pose proof (CI_awaits c (TCall cid) cid H) as Ex. rewrite Epc in Ex. injection (Ex eq_refl) as ->.
  pose proof (cancelled_outcome_ok c (TCall cid) cid kk H eq_refl ltac:(discriminate) ltac:(rewrite Epc; reflexivity) Eg Egd) as CO.
  destruct (take_cancel c (TCall cid)) as [c1 mc]. cbn [snd] in CO.
  rewrite (some_pair_snd _ _ _ E). apply cancel_ok_finish.
  intros Q _. apply CO. destruct (if mc then DExc CancelledErr else deliver_cfut (c_fut kk)) as [|e]; [discriminate Q|]. injection Q as ->. reflexivity.
Qed.

Lemma get_task_upd c cid f t : get_task (upd_call c cid f) t = get_task c t.
Proof. destruct t; reflexivity. Qed.

Lemma CI_call_cancel c cid kk : CI c -> get_call c cid = Some kk ->
  (utask (c_owner kk) = true -> user_cancelled (get_task c (c_owner kk)) = true) ->
  CI (upd_call c cid (fun x => x <| c_fut := CCancelled |>)).
Proof.
  intros [F O T St A M Cc] Eg Hu.
  constructor.
  - apply F1_upd_cancel. exact F.
  - intros k x Hin Hx. unfold upd_call in Hin. cbn in Hin. apply in_map_iff in Hin. destruct Hin as (k0 & Ek & Hk0).
    destruct (Nat.eqb (c_id k0) cid); subst k; cbn in *; apply (O k0 x Hk0 Hx).
  - exact T.
  - exact St.
  - intros t' cid' Hn' Hs' Ha'. rewrite get_task_upd in Ha'. destruct (A t' cid' Hn' Hs' Ha') as (k2 & G2 & O2).
    rewrite get_call_upd, G2 by (intros ? Q; exact Q).
    destruct (Nat.eqb cid' cid); [exists (k2 <| c_fut := CCancelled |>)|exists k2]; split; try reflexivity; exact O2.
  - intros t' Hu' Hm'. rewrite get_task_upd in *. auto.
  - intros k Hin Hf Huk. rewrite get_task_upd. unfold upd_call in Hin. cbn in Hin. apply in_map_iff in Hin. destruct Hin as (k0 & Ek & Hk0).
    destruct (Nat.eqb (c_id k0) cid) eqn:E1; subst k; cbn in *; [|exact (Cc k0 Hk0 Hf Huk)].
    (* the call just cancelled: ids are unique *)
    assert (k0 = kk).
    { destruct F as [U _ _]. destruct (get_call_in c cid kk Eg) as [Hink Hidk]. apply Nat.eqb_eq in E1.
      apply (uniq_id (calls c)); auto. congruence. }
    subst k0. exact (Hu Huk).
Qed.

(* S2 for a move written as an update of the fields of c: what S2 reads, field by field *)
Lemma S2_fields t c c' :
  calls c' = calls c -> next_cid c' = next_cid c -> call_tasks c' = call_tasks c ->
  (t <> TStart -> t_start c' = t_start c) -> (t <> TFinish -> t_finish c' = t_finish c) -> (t <> TDisc -> t_disc c' = t_disc c) ->
  (must_cancel (get_task c' t) = true -> must_cancel (get_task c t) = true) ->
  user_cancelled (get_task c' t) = user_cancelled (get_task c t) ->
  (pc (get_task c' t) = pc (get_task c t) \/ awaited (pc (get_task c' t)) = None) ->
  S2 t c c'.
Proof.
  intros Ec En Et Hs Hf Hd Hm Hu Hp. constructor; auto.
  - rewrite Ec. apply (F2_refl callrel callrel_refl).
  - rewrite Et. reflexivity.
  - intros t' Hn. destruct t'; cbn [get_task].
    + apply Hs. congruence.
    + apply Hf. congruence.
    + apply Hd. congruence.
    + rewrite Et. reflexivity.
Qed.

Ltac s2f_field := first [intros _; reflexivity | let Q := fresh in intro Q; exfalso; apply Q; reflexivity].
Ltac s2f T := apply (S2_fields T); [reflexivity|reflexivity|reflexivity|s2f_field|s2f_field|s2f_field|let Q := fresh in intro Q; exact Q|reflexivity|].

(* marked l: the tasks on which l calls Task.cancel() on behalf of their caller carry the caller's mark *)
Definition marked (l : label) (c : conn) : Prop := forall t, cancels l t -> utask t = true -> user_cancelled (get_task c t) = true.
Lemma marked_S2 l t c c' : S2 t c c' -> marked l c -> marked l c'.
Proof. intros S M t' A U. destruct (tid_dec t' t) as [->|D]; [rewrite (y_uc _ _ _ S)|rewrite (y_other _ _ _ S t' D)]; exact (M _ A U). Qed.
Lemma marked_same l c c' : (forall t, get_task c' t = get_task c t) -> marked l c -> marked l c'.
Proof. intros E M t A U. rewrite E. exact (M t A U). Qed.
Lemma marked_set_task l c t k' : exists_task c t -> user_cancelled k' = user_cancelled (get_task c t) -> marked l c -> marked l (set_task c t k').
Proof.
  intros X E M t' A U. destruct (set_task_facts c t k' X) as (Hs & Ho & _).
  destruct (tid_dec t' t) as [->|D]; [rewrite Hs, E|rewrite (Ho t' D)]; exact (M _ A U).
Qed.

Lemma marked_user_cancel c t : exists_task c t -> marked (LCancel t) (set_task c t (get_task c t <| user_cancelled := true |>)).
Proof.
  intros X t' -> _. destruct (set_task_facts c t (get_task c t <| user_cancelled := true |>) X) as (Hs & _). rewrite Hs. reflexivity.
Qed.

(* Why no label that runs finish_connection or starts a call: finish_connection names its hello call before it registers it,
   and a new call task exists before its call; there the invariant is broken for some moves. *)
Lemma CI_step l c o c' : step_atom l c o c' -> ~ runs l TFinish -> ~ starts_call l -> CI c /\ marked l c -> CI c' /\ marked l c'.
Proof.
  intros A Hf Hs [H M].
  assert (keep : forall t, S2 t c c' -> CI c' /\ marked l c') by (intros t S; exact (conj (CI_S2 t c c' S H) (marked_S2 l t c c' S M))).
  (* most moves leave the calls, the id counter and the tasks alone; those of finish_connection and of a new call task are no
     moves of l *)
  destruct A; try (apply (keep TStart), S2_ab; reflexivity); try contradiction.
  - (* SClose *) apply (keep TStart), S2_S1. eapply S1_close; eassumption.
  - (* SData: ids are distinct *) apply (keep TStart), S2_S1. eapply S1_data; [eassumption|exact (f_uniq _ (i_f1 _ _ H))].
  - (* SNewCall *)
    destruct (CIs_register_call _ c owner types ap st tmo H) as (H' & Tk & _); [assumption|]. exact (conj H' (marked_same l _ _ Tk M)).
  - (* SCallFinally *) apply (keep TStart), S2_S1, S1_call_finally.
  - (* SCallTimeout *) apply (keep TStart), S2_S1, S1_upd_call, callrel_timeout.
  - (* SCallCancel: Task.cancel() cancels the pending call that t awaits: t's own, and t carries the mark *)
    split; [|apply (marked_same l c); [intro t'; destruct t'; reflexivity|exact M]].
    match goal with W : waits_for _ _ |- _ => apply waits_for_awaited in W; rename W into Ha end.
    match goal with G : get_call _ _ = Some _ |- _ => apply (CI_call_cancel c cid k H G) end.
    assert (Hn : t <> TStart) by (intros ->; rewrite (i_st _ _ H : awaited (pc (get_task c TStart)) = None) in Ha; discriminate).
    destruct (i_aw _ _ H t cid Hn (fun F => F) Ha) as (kk' & G' & Ow).
    match goal with G : get_call c cid = Some k |- _ => rewrite G in G' end. injection G' as <-. rewrite Ow. apply M. assumption.
  - (* STaskCancel: the request may raise the flag: of a marked task *)
    assert (X : exists_task c t) by (apply task_running_exists; assumption).
    split; [|apply marked_set_task; [exact X|reflexivity|exact M]].
    apply CIs_set_task; try assumption.
    + intros ->. exact (i_st _ _ H).
    + intro cid. exact (i_aw _ _ H t cid).
    + intros Ut _. apply M; assumption.
    + intros _ Q. exact Q.
  - (* STask *) apply (keep t), S2_tmove. assumption.
  - (* STaskDone *) exact (keep t (S2_finish_task c t r)).
  - (* SUserCancel: the caller's mark *)
    subst l. pose proof (task_running_exists c t ltac:(assumption)) as X. exact (conj (CI_mark_cancelled c t H X) (marked_user_cancel c t X)).
  - (* SIntrStart *) apply (keep TStart). s2f TStart; left; reflexivity.
  - (* SIntrFinish *) apply (keep TFinish). s2f TFinish; left; reflexivity.
  - (* SConnExpire *) apply (keep TStart). s2f TStart; left; reflexivity.
  - (* SStart: the program point of start_connection stores no call *) apply (keep TStart). s2f TStart; right; reflexivity.
  - (* SStartTcp *) apply (keep TStart), S2_start_tcp_attempt.
  - (* SSockOpen *) apply (keep TStart). eapply S2_trans; [apply (S2_ab _ c (set_state c SockOpen)); reflexivity|apply S2_finish_task].
  - (* SFinish: finish_connection begins, no call yet *) apply (keep TFinish). s2f TFinish; right; reflexivity.
  - (* SDiscWait: disconnect() begins, no call yet *) apply (keep TDisc). s2f TDisc; right; reflexivity.
  - (* SPcDiscWait *) apply (keep TDisc), S2_pc_none; try reflexivity; exact I.
  - (* SPcDiscResp: disconnect() awaits the call it has registered *)
    split; [|apply marked_set_task; [exact I|reflexivity|exact M]].
    apply CIs_set_task; try exact H; try exact I; try discriminate.
    + intros cid' _ _ Q. injection Q as <-.
      match goal with E : exists _, _ |- _ => destruct E as (k & Hin & <- & Ow) end.
      exists k. split; [|exact Ow]. exact (get_call_of c k (f_uniq _ (i_f1 _ _ H)) Hin).
    + intros _ Q. exact (i_mc _ _ H TDisc eq_refl Q).
    + intros _ Q. exact Q.
  - (* SSub *) apply (keep TStart), S2_ab, ab_add.
Qed.

Lemma CI_path l c o c' : spath l c o c' -> ~ runs l TFinish -> ~ starts_call l -> CI c /\ marked l c -> CI c' /\ marked l c'.
Proof. intros P Hf Hs. exact (path_inv _ (fun x => CI x /\ marked l x) (fun x ox x' A => CI_step l x ox x' A Hf Hs) c o c' P). Qed.

(* the labels that neither run finish_connection nor start a call nor cancel an operation of the caller: every move of theirs
   keeps the invariant *)
Definition steady (l : label) : Prop := match l with LCallStart _ _ _ _ _ | LCancel _ | LWake TFinish => False | _ => True end.
Lemma steady_finish l : steady l -> ~ runs l TFinish.
Proof. intros S Q. destruct l; cbn in S, Q; try contradiction; try discriminate Q. subst. exact S. Qed.
Lemma steady_call l : steady l -> ~ starts_call l.
Proof. intros S (? & ? & ? & ? & ? & ->). exact S. Qed.
Lemma steady_cancels l t : steady l -> cancels l t -> utask t = false.
Proof.
  destruct l; cbn; try contradiction; intros _ Q.
  - subst t. destruct is_start; reflexivity.
  - destruct k; try contradiction. subst t. reflexivity.
Qed.

Lemma step_steady c l c' o : steady l -> CI c -> step c l = Some (c', o) -> CI c'.
Proof.
  intros S H E. refine (proj1 (CI_path l c o c' (step_path _ _ _ _ E) (steady_finish l S) (steady_call l S) (conj H _))).
  intros t A U. rewrite (steady_cancels l t S A) in U. discriminate.
Qed.

Lemma CIs_bump skip c n : CIs skip c -> (next_cid c <= n)%nat -> CIs skip (c <| next_cid := n |>).
Proof.
  intros [F O T St A M Cc] Hn.
  assert (Tk : forall t, get_task (c <| next_cid := n |>) t = get_task c t) by (intro t; destruct t; reflexivity).
  constructor.
  - destruct F as [U L Fu]. constructor; try assumption. cbn. eapply Forall_impl; [|exact L]. cbn. intros. lia.
  - exact O.
  - cbn. eapply Forall_impl; [|exact T]. cbn. intros a0 [Q|Q]; [left; lia|right; exact Q].
  - exact St.
  - intros t cid Hn' Hs Ha. rewrite Tk in Ha. exact (A t cid Hn' Hs Ha).
  - intros t Hu Hm. rewrite Tk in *. auto.
  - intros k Hin Hf Hu. rewrite Tk. exact (Cc k Hin Hf Hu).
Qed.

Lemma find_app_tasks (l : list (nat * task)) p x : Forall (fun q => (fst q < fst p)%nat) l ->
  find (fun q => Nat.eqb (fst q) x) (l ++ [p]) = match find (fun q => Nat.eqb (fst q) x) l with Some q => Some q | None => if Nat.eqb (fst p) x then Some p else None end.
Proof. intros _. exact (find_app _ l [p]). Qed.

(* a call task appended under the next id: the ids of the call tasks are below it (i_tlt), so it is found there and hides none *)
Lemma new_task_facts c k0 : CI c ->
  let c0 := c <| call_tasks := call_tasks c ++ [(next_cid c, k0)] |> in
  get_task c0 (TCall (next_cid c)) = k0 /\ (forall t, t <> TCall (next_cid c) -> get_task c0 t = get_task c t) /\
  exists_task c0 (TCall (next_cid c)).
Proof.
  intros H c0. pose proof (i_tlt _ _ H) as T.
  assert (Hnone : find (fun q : nat * task => Nat.eqb (fst q) (next_cid c)) (call_tasks c) = None).
  { apply find_all_false. intros a Hin. rewrite Forall_forall in T. destruct (T a Hin) as [Q|[]]. apply Nat.eqb_neq. lia. }
  split; [|split].
  - cbn [get_task]. unfold c0. cbn. rewrite find_app_none by exact Hnone. cbn. rewrite Nat.eqb_refl. reflexivity.
  - intros t Hn. destruct t; try reflexivity. cbn [get_task]. unfold c0. cbn.
    destruct (find (fun p => Nat.eqb (fst p) cid) (call_tasks c)) eqn:Ef; [rewrite (find_app_some _ _ _ _ Ef); reflexivity|].
    rewrite find_app_none by exact Ef. cbn. destruct (Nat.eqb (next_cid c) cid) eqn:E; [apply Nat.eqb_eq in E; congruence|reflexivity].
  - cbn. unfold c0. cbn. rewrite find_app_none by exact Hnone. cbn. rewrite Nat.eqb_refl. discriminate.
Qed.

Lemma CI_new_task c k0 : CI c -> awaited (pc k0) = Some (next_cid c) -> must_cancel k0 = false -> user_cancelled k0 = false ->
  let c0 := c <| call_tasks := call_tasks c ++ [(next_cid c, k0)] |> in
  CIs (eq (TCall (next_cid c))) c0 /\ get_task c0 (TCall (next_cid c)) = k0 /\ exists_task c0 (TCall (next_cid c)).
Proof.
  intros H Ha Hm Hu c0. destruct (new_task_facts c k0 H) as (Tnew & Told & Xnew). fold c0 in Tnew, Told, Xnew.
  destruct H as [F O T St A M Cc].
  split; [|exact (conj Tnew Xnew)].
  constructor.
  - exact (F1_ac c c0 eq_refl F).
  - exact O.
  - unfold c0. cbn. apply Forall_app. split.
    + eapply Forall_impl; [|exact T]. cbn. intros a [Q|[]]. left. exact Q.
    + constructor; [|constructor]. cbn. right. reflexivity.
  - exact St.
  - intros t cid Hn Hs Hat. rewrite Told in Hat by (intro Q; apply Hs; symmetry; exact Q). exact (A t cid Hn (fun F => F) Hat).
  - intros t Hut Hmt. destruct (tid_dec t (TCall (next_cid c))) as [->|Hd]; [rewrite Tnew in *; congruence|]. rewrite Told in * by exact Hd. auto.
  - intros k Hin Hf Huk. destruct (tid_dec (c_owner k) (TCall (next_cid c))) as [Hd|Hd].
    + exfalso. pose proof (O k (next_cid c) Hin Hd) as Q. destruct F as [_ L _]. rewrite Forall_forall in L. specialize (L k Hin). cbn in L. lia.
    + rewrite Told by exact Hd. exact (Cc k Hin Hf Huk).
Qed.

Theorem step_cancel c l c' o : CI c -> step c l = Some (c', o) -> CI c' /\ cancel_ok c o.
Proof.
  intros H E.
  (* a task of the caller ends only under the labels that run one *)
  assert (Q : (forall t, runs l t -> utask t = false) -> cancel_ok c o) by exact (cancel_ok_runs l c o c' (step_path _ _ _ _ E)).
  assert (Sd : steady l -> CI c') by (intro Sd; exact (step_steady c l c' o Sd H E)).
  destruct l; try (split; [exact (Sd I)|apply Q; intros t' R; contradiction]); cbn [step] in E.
  - (* LDisconnect: it waits for finish_connection, or goes on at once *)
    split; [exact (Sd I)|]. destruct (pc (t_disc c)); try discriminate.
    destruct (finish_fut c) eqn:Ef;
      lazymatch type of Ef with
      | _ = FPending => apply some_pair_inv in E; destruct E as [_ <-]; intros t []
      | _ => rewrite (some_pair_snd _ _ _ E); apply no_cancel_ok, no_cancel_disconnect_after_wait
      end.
  - (* LCallStart: the new task is exempt until its call is registered *)
    assert (Q1 : awaited (pc (task0 <| pc := PC_Wait (next_cid c) |>)) = Some (next_cid c)) by reflexivity.
    destruct (CI_new_task c (task0 <| pc := PC_Wait (next_cid c) |>) H Q1 eq_refl eq_refl) as (H0 & Tn & X0). clear Q1. cbn zeta in H0, Tn, X0.
    match type of E with context [call_begin ?x ?a ?b ?d ?e ?f ?g] =>
      destruct (CIs_call_begin _ x a b d e f g H0 ltac:(intros y Qy; injection Qy as <-; reflexivity)) as (H2 & Tk & Hs);
      pose proof (no_done_call_begin x a b d e f g) as D2; pose proof (call_begin_exc x a b d e f g) as X2; pose proof (call_begin_next x a b d e f g) as N2;
      destruct (call_begin x a b d e f g) as [[[c1 o1] ex] cid'] end.
    cbn [fst snd] in H2, Tk, Hs, D2, X2, N2.
    change (next_cid (c <| call_tasks := _ |>)) with (next_cid c) in N2, Hs.
    destruct ex as [e|].
    + destruct X2 as [le ->].
      assert (H3 : CIs (eq (TCall (next_cid c))) (c1 <| next_cid := S (next_cid c) |>)) by (apply CIs_bump; [exact H2|exact N2]).
      assert (X3 : exists_task c1 (TCall (next_cid c))) by (apply pc_exists_task; rewrite Tk, Tn; discriminate).
      match type of E with context [finish_task ?x ?t ?r] =>
        pose proof (S2_finish_task x t r) as A; pose proof (finish_task_pc x t r X3) as P; pose proof (no_cancel_finish x t r ltac:(discriminate)) as B;
        destruct (finish_task x t r) as [c3 o3] end.
      cbn [fst snd] in A, P, B. apply some_pair_inv in E. destruct E as [<- <-]. split.
      * apply (CIs_unskip_none c3 (TCall (next_cid c))); [eapply CIs_S2; eassumption| |exact P].
        intros y Qy. injection Qy as <-. rewrite (y_next _ _ _ A). cbn. lia.
      * apply no_cancel_ok, no_cancel_app; [apply no_cancel_nodone; exact D2|exact B].
    + apply some_pair_inv in E. destruct E as [<- <-]. split; [|apply no_cancel_ok, no_cancel_nodone; exact D2].
      destruct (Hs eq_refl) as (_ & kk & G & Ow).
      apply (CIs_unskip c1 (TCall (next_cid c)) H2).
      * intros y Qy. injection Qy as <-.
        destruct (get_call_in c1 (next_cid c) kk G) as [Hin Hid]. pose proof (f_lt _ (i_f1 _ _ H2)) as L. rewrite Forall_forall in L. specialize (L kk Hin). cbn in L. lia.
      * intros cid'' Ha. rewrite Tk, Tn in Ha. cbn in Ha. injection Ha as <-. eauto.
  - (* LCancel: the caller's mark, then Task.cancel() along its path *)
    destruct (task_running (get_task c t)) eqn:Er; apply some_pair_inv in E; destruct E as [<- <-]; (split; [|intros t' []]); [|exact H].
    pose proof (task_running_exists c t Er) as X.
    refine (proj1 (CI_path (LCancel t) _ _ _ (path_cancel_task (LCancel t) _ t eq_refl) (fun F => F) _ (conj (CI_mark_cancelled c t H X) (marked_user_cancel c t X)))).
    intros (? & ? & ? & ? & ? & F). discriminate F.
  - (* LWake *)
    destruct t.
    + split; [exact (Sd I)|]. apply Q. intros ? ->. reflexivity.
    + split; [exact (CI_wake_finish c c' o E H)|]. apply Q. intros ? ->. reflexivity.
    + exact (conj (Sd I) (wake_disc_cancel c c' o E H)).
    + exact (conj (Sd I) (wake_call_cancel c cid c' o E H)).
Qed.

Lemma CI_init n e ka scr : CI (init n e ka scr).
Proof.
  constructor; cbn.
  - apply F1_init.
  - intros k x [].
  - constructor.
  - reflexivity.
  - intros t cid _ _ Ha. destruct t; cbn in Ha; discriminate.
  - intros t _ Hm. destruct t; cbn in Hm; discriminate.
  - intros k [].
Qed.

Lemma run_CI ls : forall c c' os, CI c -> run c ls = Some (c', os) -> CI c'.
Proof. apply run_invariant. intros c l c' o H E. exact (proj1 (step_cancel c l c' o H E)). Qed.

(* In every run: when disconnect() or a request/response call ends with CancelledError, its caller had cancelled that very
   operation (ghost flag user_cancelled, assigned in exactly one place of Model/Conn.v: the LCancel label). *)
Theorem cancellation_only_by_caller n e ka scr l1 c1 os1 l c2 o t :
  run (init n e ka scr) l1 = Some (c1, os1) -> step c1 l = Some (c2, o) ->
  In (OTaskDone t (TRaise CancelledErr)) o -> (t = TDisc \/ exists cid, t = TCall cid) ->
  user_cancelled (get_task c1 t) = true.
Proof.
  intros E1 Es Hin Ht. pose proof (run_CI l1 _ _ _ (CI_init n e ka scr) E1) as H1.
  destruct (step_cancel c1 l c2 o H1 Es) as [_ B]. apply B; [exact Hin|]. destruct Ht as [->|[cid ->]]; reflexivity.
Qed.

(* the ghost flag is raised by the caller's cancel *)
Lemma cancel_marks c t c' o : task_running (get_task c t) = true -> step c (LCancel t) = Some (c', o) -> exists_task c t ->
  user_cancelled (get_task (set_task c t (get_task c t <| user_cancelled := true |>)) t) = true.
Proof.
  intros _ _ X. destruct (set_task_facts c t (get_task c t <| user_cancelled := true |>) X) as (Hs & _). rewrite Hs. reflexivity.
Qed.

(* the link between a task and the call it awaits, in every run *)
Theorem awaited_call_owned n e ka scr ls c os t cid :
  run (init n e ka scr) ls = Some (c, os) -> t <> TStart -> awaited (pc (get_task c t)) = Some cid ->
  exists kk, get_call c cid = Some kk /\ c_owner kk = t.
Proof.
  intros E Hn Ha. pose proof (run_CI ls _ _ _ (CI_init n e ka scr) E) as [_ _ _ _ A _ _]. apply A; auto.
Qed.
