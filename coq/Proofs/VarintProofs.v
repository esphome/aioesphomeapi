(* Kernel/Varint.v: read_varuint reads back what enc wrote, whatever follows it (C01, C02, C04); an encoding is minimal
   and made of bytes (C02); a strict prefix of one reads as incomplete (C01). *)
From Coq Require Import NArith List Lia Bool.
From Verif Require Import Kernel.Varint Proofs.ListFacts.
Import ListNotations.
Open Scope N_scope.

Lemma split7 v bp :
  N.lor (N.shiftl (N.land v 127) bp) (N.shiftl (N.shiftr v 7) (bp + 7)) = N.shiftl v bp.
Proof.
  rewrite (N.add_comm bp 7), <- N.shiftl_shiftl, <- N.shiftl_lor. f_equal.
  change 127 with (N.ones 7). rewrite <- N.ldiff_ones_r, N.lor_comm. apply N.lor_ldiff_and.
Qed.

Lemma land127_lt x : N.land x 127 < 128.
Proof. change 127 with (N.ones 7). rewrite N.land_ones. apply N.mod_lt. discriminate. Qed.

Lemma small_land127 v : v <= 127 -> N.land v 127 = v.
Proof.
  intro H. change 127 with (N.ones 7). rewrite N.land_ones. apply N.mod_small.
  change (2^7) with 128. lia.
Qed.

(* N.land 127 128 computes to 0 *)
Lemma land127_land128 x : N.land (N.land x 127) 128 = 0.
Proof. rewrite <- N.land_assoc. apply N.land_0_r. Qed.

Lemma small_land128 v : v <= 127 -> N.land v 128 = 0.
Proof. intro H. rewrite <- (small_land127 v H). apply land127_land128. Qed.

Lemma cont_land128 x : N.land (N.lor (N.land x 127) 128) 128 = 128.
Proof. rewrite N.land_lor_distr_l, land127_land128. reflexivity. Qed.

Lemma cont_land127 x : N.land (N.lor (N.land x 127) 128) 127 = N.land x 127.
Proof.
  rewrite N.land_lor_distr_l, <- N.land_assoc. change (N.land 127 127) with 127.
  apply N.lor_0_r.
Qed.

Lemma lor_land127_128_lt x : N.lor (N.land x 127) 128 < 256.
Proof.
  rewrite <- N.lxor_lor, <- N.add_nocarry_lxor by apply land127_land128.
  pose proof (land127_lt x). lia.
Qed.

Lemma size_le7_small v : N.size v <= 7 -> v <= 127.
Proof.
  intro Hsz. destruct (N.eq_dec v 0) as [->|Hv]; [lia|].
  rewrite N.size_log2 in Hsz by assumption.
  assert (H : N.log2 v < 7) by lia. apply N.log2_lt_pow2 in H; [|lia].
  change (2^7) with 128 in H. lia.
Qed.

Lemma log2_ge7 v : 127 < v -> 7 <= N.log2 v.
Proof. intro H. change 7 with (N.log2 128). apply N.log2_le_mono. lia. Qed.

Lemma shiftr7_nonzero v : 127 < v -> N.shiftr v 7 <> 0.
Proof.
  intros H E. pose proof (log2_ge7 v H).
  apply N.shiftr_eq_0_iff in E. destruct E as [E|[_ E]]; lia.
Qed.

Lemma size_shiftr7 v : 127 < v -> N.size (N.shiftr v 7) = N.size v - 7.
Proof.
  intro H. pose proof (shiftr7_nonzero v H). pose proof (log2_ge7 v H).
  rewrite !N.size_log2, N.log2_shiftr by lia. lia.
Qed.

(* the fuel always suffices, so enc follows the recursion of _varuint_to_bytes *)
Lemma enc_ind (P : N -> list N -> Prop) :
  (forall v, v <= 127 -> P v [v]) ->
  (forall v l, 127 < v -> P (N.shiftr v 7) l -> P v (N.lor (N.land v 127) 128 :: l)) ->
  forall v, P v (enc v).
Proof.
  intros Hsmall Hstep.
  assert (H : forall f v, N.size v <= N.of_nat f * 7 + 7 -> P v (enc_fuel f v)).
  { induction f as [|f IH]; intros v Hsz; cbn [enc_fuel].
    - apply Hsmall, size_le7_small. lia.
    - destruct (N.leb_spec v 127) as [Hs|Hs]; [apply Hsmall, Hs|].
      apply Hstep, IH; [exact Hs|]. rewrite size_shiftr7 by exact Hs. lia. }
  intro v. apply H. lia.
Qed.

Lemma enc_small v : v <= 127 -> enc v = [v].
Proof. pattern v, (enc v). apply enc_ind; [reflexivity|lia]. Qed.

Lemma dec_enc_from v : forall acc bp rest,
  dec (enc v ++ rest) acc bp = Some (N.lor acc (N.shiftl v bp), rest).
Proof.
  pattern v, (enc v). apply enc_ind; clear v.
  - intros v Hs acc bp rest. cbn [app dec].
    rewrite small_land128, small_land127 by exact Hs. reflexivity.
  - intros v l Hs IH acc bp rest. cbn [app dec].
    rewrite cont_land128, cont_land127. cbn [N.eqb Pos.eqb].
    rewrite IH, <- N.lor_assoc, split7. reflexivity.
Qed.

Theorem dec_enc v rest : read_varuint (enc v ++ rest) = Some (v, rest).
Proof. unfold read_varuint. rewrite dec_enc_from, N.lor_0_l, N.shiftl_0_r. reflexivity. Qed.

Lemma dec_app : forall bs acc bp v r c, dec bs acc bp = Some (v, r) -> dec (bs ++ c) acc bp = Some (v, r ++ c).
Proof.
  induction bs as [|b bs IH]; intros acc bp v r c H; cbn [app dec] in *; [discriminate|].
  destruct (N.land b 128 =? 0).
  - (* the last byte *) injection H as <- <-. reflexivity.
  - apply IH. exact H.
Qed.

Lemma read_varuint_app bs v r c : read_varuint bs = Some (v, r) -> read_varuint (bs ++ c) = Some (v, r ++ c).
Proof. apply dec_app. Qed.

Definition cont (b : N) : Prop := N.land b 128 <> 0.

Lemma dec_all_cont p : Forall cont p -> forall acc bp, dec p acc bp = None.
Proof.
  induction 1 as [|b p Hb _ IH]; intros acc bp; cbn [dec]; [reflexivity|].
  unfold cont in Hb. destruct (N.eqb_spec (N.land b 128) 0); [contradiction|]. apply IH.
Qed.

Lemma enc_shape v : exists init last,
  enc v = init ++ [last] /\ Forall cont init /\ last <= 127 /\
  (v <> 0 -> last <> 0) /\ (127 < v -> init <> []).
Proof.
  pattern v, (enc v). apply enc_ind; clear v.
  - intros v Hs. exists [], v. repeat split; [constructor|exact Hs|auto|lia].
  - intros v l Hs (init & last & -> & Hc & Hl & Hnz & _).
    exists (N.lor (N.land v 127) 128 :: init), last. repeat split.
    + constructor; [|exact Hc]. unfold cont. rewrite cont_land128. discriminate.
    + exact Hl.
    + intros _. apply Hnz, shiftr7_nonzero, Hs.
    + discriminate.
Qed.

Theorem enc_strict_prefix_incomplete v p q :
  enc v = p ++ q -> q <> [] -> read_varuint p = None.
Proof.
  intros E Hq. destruct (enc_shape v) as (init & last & E' & Hc & _).
  apply dec_all_cont. rewrite E' in E. symmetry in E.
  destruct (app_eq_app_cases _ _ _ _ E) as [(r & _ & -> & _)|(r & -> & Er)].
  - apply Forall_app in Hc. apply Hc.
  - destruct r as [|x r]; [rewrite app_nil_r; exact Hc|].
    injection Er as _ Er. symmetry in Er. apply app_eq_nil in Er. tauto.
Qed.

Lemma enc_cut v r p q : p ++ q = enc v ++ r ->
  read_varuint p = None \/ exists p', p = enc v ++ p' /\ p' ++ q = r.
Proof.
  intro E. destruct (app_eq_app_cases _ _ _ _ E) as [(x & Hx & Ev & _)|(p' & -> & ->)].
  - left. exact (enc_strict_prefix_incomplete _ _ _ Ev Hx).
  - right. exists p'. split; reflexivity.
Qed.

Lemma enc_nonempty v : enc v <> [].
Proof. destruct (enc_shape v) as (init & last & -> & _). destruct init; discriminate. Qed.

Theorem enc_bytes v : Forall (fun b => b < 256) (enc v).
Proof.
  pattern v, (enc v). apply enc_ind; clear v.
  - intros v Hs. constructor; [lia|constructor].
  - intros v l _ IH. constructor; [apply lor_land127_128_lt|exact IH].
Qed.

Theorem enc_minimal v :
  (v <= 127 /\ enc v = [v]) \/
  (127 < v /\ exists init last, enc v = init ++ [last] /\ init <> [] /\ last <> 0 /\ last <= 127).
Proof.
  destruct (N.leb_spec v 127) as [H|H].
  - left. split; [exact H|apply enc_small, H].
  - right. split; [exact H|].
    destruct (enc_shape v) as (init & last & E & _ & Hl & Hnz & Hi).
    exists init, last. repeat split; [exact E|apply Hi, H|apply Hnz; lia|exact Hl].
Qed.
