(* Abstraction of the connection state to the fields the invariant talks about (the "core"), what the synchronous functions
   of Model/Conn.v do to it (mv), and the invariant Inv; then `shape`, the part of Inv that every move of Proofs/ConnMoves.v
   keeps, also in the middle of a callback. *)
From Coq Require Import NArith ZArith List Bool Relations.
From RecordUpdate Require Import RecordSet.
From Verif Require Import Model.Conn Proofs.ConnMoves.
Import ListNotations RecordSetNotations.
Open Scope Z_scope.
Open Scope list_scope.

Record core := mkCore {
  k_cs : cstate; k_conn : bool; k_hs : bool; k_armed : bool; k_stops : list bool; k_ever : bool;
  k_ping : option Z; k_pong : option Z; k_waiters : list nat; k_socket : bool; k_helper : hstat;
  k_ps : tpc; k_pf : tpc; k_pd : tpc; k_expected : bool }.

Definition core_of (c : conn) : core :=
  mkCore (cs c) (is_connected c) (handshake_complete c) (on_stop_armed c) (stop_calls c) (ever_connected c)
         (ping_timer c) (pong_timer c) (waiters c) (socket c) (helper c)
         (pc (t_start c)) (pc (t_finish c)) (pc (t_disc c)) (expected_disconnect c).

(* _release_resources and _cleanup on the core *)
Definition releaseK (k : core) : core :=
  mkCore (k_cs k) (k_conn k) (k_hs k) (k_armed k) (k_stops k) (k_ever k) None None (k_waiters k) false HNone
         (k_ps k) (k_pf k) (k_pd k) (k_expected k).

Definition closeK (k : core) : core :=
  match k_cs k with
  | Closed => releaseK k
  | _ =>
    let fire := k_armed k && k_conn k in
    mkCore Closed false false (if fire then false else k_armed k)
           (if fire then k_stops k ++ [k_expected k] else k_stops k) (k_ever k)
           None None [] false HNone (k_ps k) (k_pf k) (k_pd k) (k_expected k)
  end.

Lemma closeK_cs k : k_cs (closeK k) = Closed.
Proof. unfold closeK, releaseK. destruct (k_cs k) eqn:E; cbn; auto. Qed.
Lemma closeK_helper k : k_helper (closeK k) = HNone.
Proof. unfold closeK, releaseK. destruct (k_cs k); reflexivity. Qed.
Lemma closeK_pcs k : k_ps (closeK k) = k_ps k /\ k_pf (closeK k) = k_pf k /\ k_pd (closeK k) = k_pd k.
Proof. unfold closeK, releaseK. destruct (k_cs k); auto. Qed.

(* what a synchronous function does to the core, _cleanup taken as one step (Inv fails between its moves) *)
Inductive mv : core -> core -> Prop :=
| MvClose k : mv k (closeK k)
| MvAddWaiter k x : k_hs k = true ->
    mv k (mkCore (k_cs k) (k_conn k) (k_hs k) (k_armed k) (k_stops k) (k_ever k) (k_ping k) (k_pong k)
                 (k_waiters k ++ [x]) (k_socket k) (k_helper k) (k_ps k) (k_pf k) (k_pd k) (k_expected k))
| MvFilterWaiters k f :
    mv k (mkCore (k_cs k) (k_conn k) (k_hs k) (k_armed k) (k_stops k) (k_ever k) (k_ping k) (k_pong k)
                 (filter f (k_waiters k)) (k_socket k) (k_helper k) (k_ps k) (k_pf k) (k_pd k) (k_expected k))
| MvClearPong k :
    mv k (mkCore (k_cs k) (k_conn k) (k_hs k) (k_armed k) (k_stops k) (k_ever k) (k_ping k) None
                 (k_waiters k) (k_socket k) (k_helper k) (k_ps k) (k_pf k) (k_pd k) (k_expected k))
| MvExpected k :
    mv k (mkCore (k_cs k) (k_conn k) (k_hs k) (k_armed k) (k_stops k) (k_ever k) (k_ping k) (k_pong k)
                 (k_waiters k) (k_socket k) (k_helper k) (k_ps k) (k_pf k) (k_pd k) true).

(* the cores before and after a synchronous function *)
Definition R : core -> core -> Prop := clos_refl_trans core mv.

Lemma R_refl k : R k k. Proof. apply rt_refl. Qed.
Lemma R_trans a b c : R a b -> R b c -> R a c. Proof. apply rt_trans. Qed.
Lemma R_mv a b : mv a b -> R a b. Proof. apply rt_step. Qed.
Lemma R_eq a b : a = b -> R a b. Proof. intros ->. apply R_refl. Qed.

Definition flagsK (k : core) : Prop :=
  k_conn k = (match k_cs k with Connected => true | _ => false end) /\
  k_hs k = (match k_cs k with HsDone | Connected => true | _ => false end).

(* a connect phase that is suspended fits the state: start_connection awaits in Init, finish_connection in SockOpen and,
   for its hello exchange, in HsDone - or the connection was closed under it *)
Definition JK (k : core) : Prop :=
  (match k_ps k with PS_Resolve | PS_Tcp _ => k_cs k = Init \/ k_cs k = Closed | _ => True end) /\
  (match k_pf k with
   | PF_Create | PF_Ready => k_cs k = SockOpen \/ k_cs k = Closed
   | PF_Hello _ => k_cs k = HsDone \/ k_cs k = Closed
   | _ => True end).

(* the stop callback: armed until its one call, which is made on closing a connection that was CONNECTED; ever_connected is
   up exactly from CONNECTED on *)
Definition StopK (k : core) : Prop :=
  (k_armed k = true -> k_stops k = []) /\
  (k_armed k = false -> k_ever k = true /\ k_cs k = Closed /\ exists b, k_stops k = [b]) /\
  (k_ever k = true -> k_cs k = Connected \/ k_cs k = Closed) /\
  (k_cs k = Connected -> k_ever k = true) /\
  (k_cs k = Closed -> k_ever k = true -> k_armed k = false).

(* CLOSED means released, but for the helper: finish_connection resumed from create_connection after the close sets the
   attribute again and awaits the handshake (PF_Ready); its next wake-up or interruption releases it *)
Definition ClosedK (k : core) : Prop :=
  k_cs k = Closed ->
  k_ping k = None /\ k_pong k = None /\ k_waiters k = [] /\ k_socket k = false /\
  (k_helper k = HNone \/ k_pf k = PF_Ready).

Definition InvK (k : core) : Prop := flagsK k /\ JK k /\ StopK k /\ ClosedK k.
Definition Inv (c : conn) : Prop := InvK (core_of c).

Definition trans_ok (s s' : cstate) : Prop :=
  s' = s \/ (s = Init /\ s' = SockOpen) \/ (s = SockOpen /\ s' = HsDone) \/ (s = HsDone /\ s' = Connected) \/ s' = Closed.
Definition only_closes (s s' : cstate) : Prop := s' = s \/ s' = Closed.

Lemma only_closes_trans_ok s s' : only_closes s s' -> trans_ok s s'.
Proof. intros [->| ->]; unfold trans_ok; auto. Qed.

Definition SyncOK (k k' : core) : Prop :=
  only_closes (k_cs k) (k_cs k') /\ k_ps k' = k_ps k /\ k_pf k' = k_pf k /\ k_pd k' = k_pd k /\
  k_ever k' = k_ever k /\ (InvK k -> InvK k').

(* an open connection has its callback armed *)
Lemma StopK_open k : StopK k -> k_cs k <> Closed -> k_armed k = true.
Proof. intros (_ & S2 & _) N. destruct (k_armed k); [reflexivity|]. destruct (S2 eq_refl) as (_ & E & _). contradiction. Qed.

Lemma closeK_open k : k_cs k <> Closed ->
  closeK k = let fire := k_armed k && k_conn k in
             mkCore Closed false false (if fire then false else k_armed k)
                    (if fire then k_stops k ++ [k_expected k] else k_stops k) (k_ever k)
                    None None [] false HNone (k_ps k) (k_pf k) (k_pd k) (k_expected k).
Proof. intro Hn. unfold closeK. apply when_open, Hn. Qed.

Lemma InvK_closeK k : InvK k -> InvK (closeK k).
Proof.
  intros (F & J & St & C). destruct (closed_or_open (k_cs k)) as [Ec|Ec].
  - (* closed already: only the release *)
    unfold closeK. rewrite Ec. split; [exact F|]. split; [exact J|]. split; [exact St|].
    intros _. destruct (C Ec) as (_ & _ & W & _ & _). cbn. repeat split; auto.
  - rewrite (closeK_open k Ec). destruct F as [F1 F2].
    (* the callback is armed, so that no call was made yet *)
    pose proof (StopK_open k St Ec) as Ea. destruct St as (S1 & _ & S3 & S4 & _).
    (* and it counts as connected exactly when the state is CONNECTED, which is when it was ever connected *)
    assert (Hn : k_conn k = true <-> k_ever k = true).
    { rewrite F1. split.
      - destruct (k_cs k) eqn:Es; try discriminate. intros _. exact (S4 eq_refl).
      - intro Ev. destruct (S3 Ev) as [->|E]; [reflexivity|contradiction]. }
    rewrite Ea, (S1 Ea). cbn [andb]. split; [|split; [|split]]; cbn.
    + (* flagsK *) split; reflexivity.
    + (* JK: every program point allows CLOSED *) destruct J as [J1 J2]. split; [destruct (k_ps k)|destruct (k_pf k)]; cbn; auto.
    + (* StopK: one call was made iff the connection had been up *)
      unfold StopK. destruct (k_conn k); cbn; (split; [|split; [|split; [|split]]]); try discriminate; auto.
      * (* it was up, the call is made: it was ever connected *) intros _. split; [apply Hn; reflexivity|]. eauto.
      * (* it was not up, the callback stays armed: it never was connected *) intros _ Ev. symmetry. apply Hn, Ev.
    + (* ClosedK *) intros _. repeat split; auto.
Qed.

Lemma mv_ok k k' : mv k k' -> SyncOK k k'.
Proof.
  intro H. destruct H as [k|k x Hhs|k f|k|k]; unfold SyncOK; cbn.
  - (* MvClose *)
    destruct (closeK_pcs k) as (P1 & P2 & P3). rewrite P1, P2, P3, closeK_cs.
    split; [right; reflexivity|]. do 3 (split; [reflexivity|]).
    split; [unfold closeK, releaseK; destruct (k_cs k); reflexivity|exact (InvK_closeK k)].
  - (* MvAddWaiter: only while the handshake is complete, hence not closed *)
    split; [left; reflexivity|]. do 4 (split; [reflexivity|]).
    intros (F & J & St & C). split; [exact F|]. split; [exact J|]. split; [exact St|].
    intro Hc. cbn in Hc. destruct F as [_ F2]. rewrite Hhs, Hc in F2. discriminate F2.
  - (* MvFilterWaiters: none are left in the closed state *)
    split; [left; reflexivity|]. do 4 (split; [reflexivity|]).
    intros (F & J & St & C). split; [exact F|]. split; [exact J|]. split; [exact St|].
    intro Hc. destruct (C Hc) as (C1 & C2 & C3 & C4 & C5). cbn. rewrite C3. repeat split; auto.
  - (* MvClearPong *)
    split; [left; reflexivity|]. do 4 (split; [reflexivity|]).
    intros (F & J & St & C). split; [exact F|]. split; [exact J|]. split; [exact St|].
    intro Hc. destruct (C Hc) as (C1 & _ & C3 & C4 & C5). cbn. repeat split; auto.
  - (* MvExpected: no clause of the invariant reads it *)
    split; [left; reflexivity|]. do 4 (split; [reflexivity|]).
    intros (F & J & St & C). split; [exact F|]. split; [exact J|]. split; [exact St|exact C].
Qed.

Lemma SyncOK_refl k : SyncOK k k.
Proof. unfold SyncOK, only_closes. split; [left; reflexivity|]. do 4 (split; [reflexivity|]). auto. Qed.
Lemma SyncOK_trans a b c : SyncOK a b -> SyncOK b c -> SyncOK a c.
Proof.
  unfold SyncOK, only_closes. intros (A1 & A2 & A3 & A4 & A5 & A6) (B1 & B2 & B3 & B4 & B5 & B6).
  split; [destruct A1 as [A1|A1], B1 as [B1|B1]; try (left; congruence); right; congruence|].
  do 4 (split; [congruence|]). auto.
Qed.
Lemma R_ok k k' : R k k' -> SyncOK k k'.
Proof.
  induction 1 as [a b H| |a b c _ IH1 _ IH2].
  - apply mv_ok; assumption.
  - apply SyncOK_refl.
  - eapply SyncOK_trans; eassumption.
Qed.

Definition sockopenK (k : core) : core :=
  mkCore SockOpen false false (k_armed k) (k_stops k) (k_ever k) (k_ping k) (k_pong k) (k_waiters k) true (k_helper k)
         (PDone TOk) (k_pf k) (k_pd k) (k_expected k).
Definition hsdoneK (k : core) (pf' : tpc) : core :=
  mkCore HsDone false true (k_armed k) (k_stops k) (k_ever k) (k_ping k) (k_pong k) (k_waiters k) (k_socket k) (k_helper k)
         (k_ps k) pf' (k_pd k) (k_expected k).
Definition connectedK (k : core) (pi : Z) : core :=
  mkCore Connected true true (k_armed k) (k_stops k) true (Some pi) (k_pong k) (k_waiters k) (k_socket k) (k_helper k)
         (k_ps k) (PDone TOk) (k_pd k) (k_expected k).

Ltac core_fields := cbn [k_cs k_conn k_hs k_armed k_stops k_ever k_ping k_pong k_waiters k_socket k_helper k_ps k_pf k_pd k_expected].

Lemma StopK_young k : StopK k -> k_cs k <> Connected -> k_cs k <> Closed -> k_armed k = true /\ k_stops k = [] /\ k_ever k = false.
Proof.
  intros St N1 N2. pose proof (StopK_open k St N2) as A. destruct St as (S1 & _ & S3 & _).
  split; [exact A|]. split; [exact (S1 A)|]. destruct (k_ever k); [destruct (S3 eq_refl); contradiction|reflexivity].
Qed.

Lemma InvK_sockopen k : InvK k -> k_cs k = Init -> InvK (sockopenK k).
Proof.
  intros (F & (J1 & J2) & St & C) E.
  destruct (StopK_young k St) as (A & B & D); try congruence.
  unfold InvK, flagsK, JK, StopK, ClosedK, sockopenK. core_fields. rewrite A, B, D, E in *.
  split; [auto|]. split; [split; [exact I|destruct (k_pf k); try exact I; destruct J2; discriminate]|].
  split; [|discriminate]. repeat split; discriminate.
Qed.
Lemma InvK_hsdone k pf' : InvK k -> k_cs k = SockOpen -> (exists cid, pf' = PF_Hello cid) -> InvK (hsdoneK k pf').
Proof.
  intros (F & (J1 & J2) & St & C) E [cid ->].
  destruct (StopK_young k St) as (A & B & D); try congruence.
  unfold InvK, flagsK, JK, StopK, ClosedK, hsdoneK. core_fields. rewrite A, B, D, E in *.
  split; [auto|]. split; [split; [destruct (k_ps k); try exact I; destruct J1; discriminate|auto]|].
  split; [|discriminate]. repeat split; discriminate.
Qed.
Lemma InvK_connected k pi : InvK k -> k_cs k = HsDone -> InvK (connectedK k pi).
Proof.
  intros (F & (J1 & J2) & St & C) E.
  destruct (StopK_young k St) as (A & B & D); try congruence.
  unfold InvK, flagsK, JK, StopK, ClosedK, connectedK. core_fields. rewrite A, B, E in *.
  split; [auto|]. split; [split; [destruct (k_ps k); try exact I; destruct J1; discriminate|exact I]|].
  split; [|discriminate]. repeat split; auto; discriminate.
Qed.

(* what every single move keeps: the two flags follow the state, and a connect phase under way fits the state *)
Definition shape (c : conn) : Prop := flagsK (core_of c) /\ JK (core_of c).

Lemma Inv_shape c : Inv c -> shape c.
Proof. intros (F & J & _). exact (conj F J). Qed.

Definition shape_view (c : conn) := (cs c, is_connected c, handshake_complete c, pc (t_start c), pc (t_finish c)).
Lemma shape_same c c' : shape_view c' = shape_view c -> shape c -> shape c'.
Proof.
  unfold shape_view, shape, flagsK, JK, core_of. core_fields. intro E. injection E as -> -> -> -> ->. exact (fun H => H).
Qed.

Lemma shape_view_add_handler c ty h : shape_view (add_handler c ty h) = shape_view c.
Proof. unfold add_handler. destruct (existsb _ _); reflexivity. Qed.

Lemma shape_view_internal_handlers c : shape_view (internal_handlers c) = shape_view c.
Proof. unfold internal_handlers. do 3 rewrite shape_view_add_handler. reflexivity. Qed.

(* on a variable: computed on `resolve_futures (close_state c)` the check would unfold close_state *)
Lemma shape_view_resolve x : shape_view (resolve_futures x) = shape_view x.
Proof. reflexivity. Qed.
(* the map over the calls is set aside before the projections are computed *)
Lemma close_state_shape c :
  cs (close_state c) = Closed /\ is_connected (close_state c) = false /\ handshake_complete (close_state c) = false /\
  pc (t_start (close_state c)) = pc (t_start c) /\ pc (t_finish (close_state c)) = pc (t_finish c).
Proof. unfold close_state. cbv zeta. set (m := map _ _). repeat split. Qed.

Lemma shape_close c o c' : close_atom c o c' -> shape c -> shape c'.
Proof.
  destruct 1; try (apply shape_same; reflexivity).
  intros _. apply (shape_same (close_state c)); [apply shape_view_resolve|].
  destruct (close_state_shape c) as (E1 & E2 & E3 & E4 & E5).
  unfold shape, flagsK, JK, core_of. core_fields. rewrite E1, E2, E3, E4, E5.
  split; [split; reflexivity|]. split; [destruct (pc (t_start c))|destruct (pc (t_finish c))]; auto.
Qed.

Lemma shape_data c o c' : data_atom c o c' -> shape c -> shape c'.
Proof.
  destruct 1 as [c o c' H| | |c [ty u|ty u]| |]; try (apply shape_same; reflexivity).
  - exact (shape_close c o c' H).
  - apply shape_same, shape_view_add_handler.
Qed.

Lemma shape_view_fold_add tys h : forall x, shape_view (fold_left (fun a ty => add_handler a ty h) tys x) = shape_view x.
Proof. apply (fold_left_view shape_view). intros a ty. apply shape_view_add_handler. Qed.
Lemma shape_view_fold_remove tys h : forall x, shape_view (fold_left (fun a ty => remove_handler a ty h) tys x) = shape_view x.
Proof. apply (fold_left_view shape_view). reflexivity. Qed.
Lemma shape_view_call_finally c cid : shape_view (call_finally c cid) = shape_view c.
Proof.
  unfold call_finally. destruct (get_call c cid); [|reflexivity]. cbv zeta.
  match goal with |- shape_view (?x <| waiters := _ |>) = _ => change (shape_view x = shape_view c) end.
  rewrite shape_view_fold_remove. reflexivity.
Qed.

Lemma shape_step l c o c' : step_atom l c o c' -> shape c -> shape c'.
Proof.
  (* the moves that touch the state, the flags or the program points of the two connect tasks, by the shape of their result *)
  destruct 1; try (apply shape_same; reflexivity);
    lazymatch goal with
    | H : close_atom _ _ _ |- _ => exact (shape_close _ _ _ H)
    | H : data_atom _ _ _ |- _ => exact (shape_data _ _ _ H)
    | |- _ -> shape (register_call _ _ _ _ _ _) => apply shape_same; unfold register_call; rewrite shape_view_fold_add; reflexivity
    | |- _ -> shape (call_finally _ _) => apply shape_same, shape_view_call_finally
    | |- _ -> shape (add_handler _ _ _) => apply shape_same, shape_view_add_handler
    | M : tmove (get_task ?c ?t) _ |- _ => (* STask *)
      apply shape_same; apply tmove_pc in M; destruct t; unfold shape_view; cbn; rewrite ?M; reflexivity
    | |- _ -> shape (set_task _ ?t (_ <| must_cancel := _ |>)) => (* STaskCancel *) apply shape_same; destruct t; reflexivity
    | |- _ -> shape (set_task _ ?t (_ <| user_cancelled := true |>)) => apply shape_same; destruct t; reflexivity
    | |- _ -> shape (internal_handlers _) => intro S; eapply shape_same; [apply shape_view_internal_handlers|]; revert S
    | _ => idtac
    end.
  all: intros (F & J1 & J2); revert F J1 J2; unfold shape, flagsK, JK, core_of; core_fields.
  - (* STaskDone: a finished task constrains nothing *) destruct t; cbn; auto.
  - (* SStart *) cbn. match goal with H : cs c = Init |- _ => rewrite H end. auto.
  - (* SStartTcp: start_connection goes on from resolving or from an earlier attempt *)
    cbn. intros F J1 J2. split; [exact F|]. split; [|exact J2].
    match goal with H : _ \/ _ |- _ => destruct H as [Q|[g' Q]]; rewrite Q in J1; exact J1 end.
  - (* SSockOpen: a TCP attempt was under way, so the state was INITIALIZED and finish_connection has not begun *)
    cbn. match goal with H : pc (t_start c) = PS_Tcp _ |- _ => rewrite H end. intros _ [J|J] J2; [|contradiction]. rewrite J in J2.
    split; [auto|]. split; [exact I|]. destruct (pc (t_finish c)); auto; destruct J2; discriminate.
  - (* SFinish *) cbn. match goal with H : cs c = SockOpen |- _ => rewrite H end. auto.
  - (* SPcReady *) cbn. match goal with H : pc (t_finish c) = PF_Create |- _ => rewrite H end. auto.
  - (* SHsDone: the helper was being created or awaited, so the state was SOCKET_OPENED and start_connection is over *)
    cbn. intros _ J1 J2.
    assert (E : cs c = SockOpen)
      by (match goal with H : _ \/ _ |- _ => destruct H as [E|E]; rewrite E in J2; destruct J2; [assumption|contradiction|assumption|contradiction] end).
    rewrite E in J1. split; [auto|]. split; [|auto]. destruct (pc (t_start c)); auto; destruct J1; discriminate.
  - (* SConnected: the hello was awaited, so the state was HANDSHAKE_COMPLETE *)
    cbn. match goal with H : pc (t_finish c) = PF_Hello _ |- _ => rewrite H end. intros _ J1 [J|J]; [|contradiction]. rewrite J in J1.
    split; [auto|]. split; [|exact I]. destruct (pc (t_start c)); auto; destruct J1; discriminate.
Qed.

