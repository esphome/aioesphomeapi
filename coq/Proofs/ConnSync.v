(* Every synchronous function of Model/Conn.v (closing, sending, dispatch, registering and ending a call, Task.cancel()) acts
   on the core (ConnCore.core_of) by a sequence of the five moves ConnCore.mv.  These are not the moves of Proofs/ConnMoves.v:
   mv is a relation on the projection, and MvClose is the whole of _cleanup in one step, because the invariant Inv does not
   hold between the move that closes the state (ACloseState) and the moves that release the resources (AHelperNone,
   ASocketClose, ATimersNone, AFire).  Of the other moves of ConnMoves.v that these functions make, SNewCall projects to
   MvAddWaiter, SCallFinally to MvFilterWaiters, DPacket to MvClearPong, DExpected to MvExpected; the rest leave the core alone. *)
From Coq Require Import NArith ZArith List Bool.
From RecordUpdate Require Import RecordSet.
From Verif Require Import Model.Conn Proofs.ConnMoves Proofs.ConnCore.
Import ListNotations RecordSetNotations.
Open Scope Z_scope.
Open Scope list_scope.

Lemma core_set_start_future c : core_of (set_start_future c) = core_of c.
Proof. unfold set_start_future. destruct (start_fut c); reflexivity. Qed.
Lemma core_set_finish_future c : core_of (set_finish_future c) = core_of c.
Proof. unfold set_finish_future. destruct (finish_fut c); reflexivity. Qed.

Lemma core_helper_close c : core_of (fst (helper_close c)) = core_of c.
Proof. unfold helper_close. repeat dm; reflexivity. Qed.

Lemma core_upd_call c cid f : core_of (upd_call c cid f) = core_of c.
Proof. reflexivity. Qed.

Lemma core_handle_call_message c cid m : core_of (handle_call_message c cid m) = core_of c.
Proof. unfold handle_call_message. repeat dm; reflexivity. Qed.

Lemma core_add_handler c ty h : core_of (add_handler c ty h) = core_of c.
Proof. unfold add_handler. dm; reflexivity. Qed.
Lemma core_remove_handler c ty h : core_of (remove_handler c ty h) = core_of c.
Proof. reflexivity. Qed.
Lemma core_run_action c a : core_of (run_action c a) = core_of c.
Proof. destruct a; cbn [run_action]; [apply core_add_handler|apply core_remove_handler]. Qed.
Lemma core_fold_actions l : forall c, core_of (fold_left run_action l c) = core_of c.
Proof. apply (fold_left_view core_of), core_run_action. Qed.
Lemma core_fold_add l h : forall c, core_of (fold_left (fun a ty => add_handler a ty h) l c) = core_of c.
Proof. apply (fold_left_view core_of). intros a ty. apply core_add_handler. Qed.
Lemma core_fold_remove l h : forall c, core_of (fold_left (fun a ty => remove_handler a ty h) l c) = core_of c.
Proof. apply (fold_left_view core_of). reflexivity. Qed.

Lemma core_set_task_same c t k :
  pc k = pc (get_task c t) -> core_of (set_task c t k) = core_of c.
Proof.
  destruct t; cbn [set_task get_task]; intro E; unfold core_of; cbn; try rewrite E; reflexivity.
Qed.

Lemma core_release c : core_of (fst (release_resources c)) = releaseK (core_of c).
Proof.
  unfold release_resources. destruct (helper c) eqn:Eh;
    [ (* HNone *) destruct (socket c) eqn:Es; cbn; unfold releaseK, core_of; cbn; rewrite ?Eh, ?Es; reflexivity
    | (* HOpen, HClosed: the helper is closed first, which leaves the core alone *)
      pose proof (core_helper_close c) as Hc; destruct (helper_close c) as [c' o]; cbn [fst] in Hc;
      assert (Hs : socket c' = socket c) by exact (f_equal k_socket Hc);
      cbn; rewrite Hs; destruct (socket c) eqn:Es; cbn;
      unfold releaseK; rewrite <- Hc; unfold core_of; cbn; rewrite ?Hs, ?Es; reflexivity .. ].
Qed.

(* fire_stop on the core *)
Definition fireK (k : core) : core :=
  mkCore (k_cs k) (k_conn k) (k_hs k) false (k_stops k ++ [k_expected k]) (k_ever k) (k_ping k) (k_pong k)
         (k_waiters k) (k_socket k) (k_helper k) (k_ps k) (k_pf k) (k_pd k) (k_expected k).

Lemma core_pre_close c : core_of (pre_close c) = core_of (close_state c).
Proof. unfold pre_close. rewrite core_set_finish_future, core_set_start_future. reflexivity. Qed.

Lemma core_cleanup c : core_of (fst (cleanup c)) = closeK (core_of c).
Proof.
  destruct (closed_or_open (cs c)) as [Ec|Ec].
  - (* CLOSED already: the resources are released once more *)
    rewrite cleanup_closed by exact Ec. rewrite core_release. unfold closeK. cbn [core_of k_cs]. rewrite Ec. reflexivity.
  - (* the state closes, the resources are released, on_stop fires if it is armed and the connection was up *)
    rewrite cleanup_open, closeK_open by exact Ec.
    pose proof (core_release (pre_close c)) as Hr. rewrite core_pre_close in Hr.
    destruct (release_resources (pre_close c)) as [c4 o]. cbn [fst] in Hr.
    assert (Ha : on_stop_armed c4 = on_stop_armed c) by (apply (f_equal k_armed) in Hr; exact Hr).
    rewrite Ha. cbv zeta. cbn [core_of k_armed k_conn].
    destruct (on_stop_armed c && is_connected c); cbn [fst];
      [change (core_of (fire_stop c4)) with (fireK (core_of c4))|]; rewrite Hr; reflexivity.
Qed.

Lemma R_cleanup c : R (core_of c) (core_of (fst (cleanup c))).
Proof. rewrite core_cleanup. apply R_mv, MvClose. Qed.

Lemma R_report_fatal c e : R (core_of c) (core_of (fst (report_fatal c e))).
Proof.
  unfold report_fatal. destruct (fatal c); [apply R_cleanup|].
  change (core_of c) with (core_of (c <| fatal := Some e |>)) at 1. apply R_cleanup.
Qed.

Lemma R_send_messages c tys : R (core_of c) (core_of (fst (fst (send_messages c tys)))).
Proof.
  unfold send_messages. destruct (handshake_complete c); cbn [negb]; [|apply R_refl].
  destruct (write_fails c); [|destruct (transport c); apply R_refl].
  pose proof (R_report_fatal c (Lib LSocketClosed)) as H. destruct (report_fatal c (Lib LSocketClosed)) as [c1 o]. exact H.
Qed.

Lemma send_messages_spec c tys :
  let '(c1, o, ex) := send_messages c tys in
  R (core_of c) (core_of c1) /\ (ex = None -> c1 = c /\ handshake_complete c = true).
Proof.
  pose proof (R_send_messages c tys) as H. pose proof (send_messages_none c tys) as K.
  destruct (send_messages c tys) as [[c1 o] ex]. split; [exact H|]. intros ->. exact (K c1 o eq_refl).
Qed.

Lemma R_call_handler c h m : R (core_of c) (core_of (fst (fst (call_handler c h m)))).
Proof.
  destruct h; cbn [call_handler].
  - (* HDisc: the peer's request is noted, answered, and the connection cleaned up *)
    pose proof (R_send_messages (c <| expected_disconnect := true |>) [T_DISC_RESP]) as H.
    destruct (send_messages (c <| expected_disconnect := true |>) [T_DISC_RESP]) as [[c2 o] ex]. cbn [fst] in H.
    assert (H0 : R (core_of c) (core_of (c <| expected_disconnect := true |>))) by (apply R_mv; apply (MvExpected (core_of c))).
    destruct ex; cbn [fst].
    + eapply R_trans; eassumption.
    + pose proof (R_cleanup c2) as H2. destruct (cleanup c2) as [c3 o3]. cbn [fst] in *.
      eapply R_trans; [eassumption|]. eapply R_trans; eassumption.
  - (* HPing *) apply R_send_messages.
  - (* HTime *) apply R_send_messages.
  - (* HCall *) cbn [fst]. rewrite core_handle_call_message. apply R_refl.
  - (* HUser *) cbn [fst]. rewrite core_fold_actions. apply R_refl.
Qed.

Lemma R_run_handlers hs m : forall c, R (core_of c) (core_of (fst (fst (run_handlers c hs m)))).
Proof.
  induction hs as [|h hs IH]; intro c; cbn [run_handlers fst]; [apply R_refl|].
  pose proof (R_call_handler c h m) as H1. destruct (call_handler c h m) as [[c1 o1] ex]. cbn [fst] in H1.
  destruct ex; cbn [fst]; [exact H1|].
  specialize (IH c1). destruct (run_handlers c1 hs m) as [[c2 o2] ex2]. cbn [fst] in *.
  eapply R_trans; eassumption.
Qed.

Lemma R_process_packet c m : R (core_of c) (core_of (fst (fst (process_packet c m)))).
Proof.
  unfold process_packet. destruct (closed_or_open (cs c)) as [Ec|Ec]; [rewrite when_closed by exact Ec; apply R_refl|].
  rewrite when_open by exact Ec. destruct (negb (registered (m_ty m))); [apply R_refl|]. destruct (negb (m_valid m)).
  - pose proof (R_report_fatal c (Lib LProtocol)) as H. destruct (report_fatal c (Lib LProtocol)) as [c1 o]. exact H.
  - match goal with |- context [run_handlers ?x ?hs ?mm] =>
      pose proof (R_run_handlers hs mm x) as H; destruct (run_handlers x hs mm) as [[c2 o2] ex2] end.
    cbn [fst] in *. eapply R_trans; [apply R_mv, (MvClearPong (core_of c))|exact H].
Qed.

Lemma R_helper_error c e : R (core_of c) (core_of (fst (helper_error c e))).
Proof.
  unfold helper_error. destruct (ready c); try apply R_report_fatal.
  change (core_of c) with (core_of (c <| ready := RExc e |>)) at 1. apply R_report_fatal.
Qed.

Lemma R_data_loop items : forall c, R (core_of c) (core_of (fst (fst (data_loop c items)))).
Proof.
  induction items as [|i items IH]; intro c; cbn [data_loop fst]; [apply R_refl|].
  destruct i as [m|req].
  - pose proof (R_process_packet c m) as H1. destruct (process_packet c m) as [[c1 o1] ex]. cbn [fst] in H1.
    destruct ex; cbn [fst]; [exact H1|].
    specialize (IH c1). destruct (data_loop c1 items) as [[c2 o2] ex2]. cbn [fst] in *.
    eapply R_trans; eassumption.
  - match goal with |- context [helper_error c ?e] =>
      pose proof (R_helper_error c e) as H; destruct (helper_error c e) as [c1 o1] end.
    cbn [fst] in *. exact H.
Qed.

Lemma core_cancel_awaited c t k : core_of (fst (cancel_awaited c t k)) = core_of c.
Proof.
  unfold cancel_awaited, cancel_efut. repeat dm; try reflexivity.
Qed.

Lemma core_cancel_task c t : core_of (cancel_task c t) = core_of c.
Proof.
  unfold cancel_task. destruct (task_running (get_task c t)); cbn [negb]; [|reflexivity].
  match goal with |- context [cancel_awaited c t ?k] =>
    pose proof (core_cancel_awaited c t k) as H; pose proof (get_task_cancel_awaited c t k t) as G;
    destruct (cancel_awaited c t k) as [c1 d] end.
  cbn [fst] in H, G. destruct d; rewrite core_set_task_same; try exact H; rewrite G; reflexivity.
Qed.

Lemma R_call_begin c owner send types ap st tmo :
  R (core_of c) (core_of (fst (fst (fst (call_begin c owner send types ap st tmo))))).
Proof.
  unfold call_begin. pose proof (send_messages_spec c send) as H.
  destruct (send_messages c send) as [[c1 o] ex]. destruct H as [H1 H2].
  destruct ex; cbn [fst]; [exact H1|].
  destruct (H2 eq_refl) as [-> Hhs]. rewrite core_fold_add.
  apply R_mv. apply (MvAddWaiter (core_of c) (next_cid c)). exact Hhs.
Qed.

Lemma R_call_finally c cid : R (core_of c) (core_of (call_finally c cid)).
Proof.
  unfold call_finally. destruct (get_call c cid); [|apply R_refl].
  match goal with |- context [fold_left ?f ?l ?x] => set (c2 := fold_left f l x) end.
  assert (H : core_of c2 = core_of c) by (unfold c2; rewrite core_fold_remove; reflexivity).
  eapply R_trans; [apply R_eq; symmetry; exact H|].
  apply R_mv. apply (MvFilterWaiters (core_of c2)).
Qed.
