(* For C09 (every awaited operation ends with its result or an error of the library's hierarchy, and with a cancellation only
   when the caller cancelled that very operation): what the moves of Model/Conn.v (Proofs/ConnMoves.v) can do to the table of
   request/response calls (S1, F1).
   The outcome of a task is classified function by function: the move that ends a task does not say where its result comes from. *)
From Coq Require Import NArith ZArith List Bool Lia PeanoNat.
From RecordUpdate Require Import RecordSet.
From Verif Require Import Generated.GenConstants Model.Conn Proofs.ConnMoves Proofs.ConnCalls Proofs.ConnErrors Proofs.ListFacts.
Import ListNotations RecordSetNotations.
Open Scope Z_scope.
Open Scope list_scope.

Definition benign (f : cfut) : Prop := f = CResult \/ f = CExc PyTimeout \/ exists l, f = CExc (Lib l).
Definition callrel (k k' : call) : Prop :=
  c_id k' = c_id k /\ c_owner k' = c_owner k /\ (c_fut k' = c_fut k \/ (c_fut k = CPending /\ benign (c_fut k'))).

Lemma callrel_refl k : callrel k k.
Proof. unfold callrel. auto. Qed.
Lemma callrel_trans a b c : callrel a b -> callrel b c -> callrel a c.
Proof.
  intros (A1 & A2 & A3) (B1 & B2 & B3). split; [congruence|]. split; [congruence|].
  destruct A3 as [A3|[A3 A4]]; destruct B3 as [B3|[B3 B4]].
  - left. congruence.
  - right. split; [congruence|exact B4].
  - right. split; [exact A3|]. rewrite B3. exact A4.
  - exfalso. rewrite B3 in A4. destruct A4 as [A4|[A4|[l A4]]]; discriminate.
Qed.

Lemma callrel_id k k' : callrel k k' -> c_id k' = c_id k.
Proof. intro H. apply H. Qed.

(* the tables of two states, entry by entry: the lemmas are those of ConnCalls.Pointwise *)
Definition callsrel (l l' : list call) : Prop := Forall2 callrel l l'.

(* S1 c c': what closing, sending and dispatch do between c and c': every call keeps its id and owner and a pending future
   may have been settled (callrel); no call is added or removed, the id counter and the task records are untouched *)
Record S1 (c c' : conn) : Prop := {
  s_calls : callsrel (calls c) (calls c');
  s_next : next_cid c' = next_cid c;
  s_tf : t_finish c' = t_finish c;
  s_td : t_disc c' = t_disc c;
  s_ct : call_tasks c' = call_tasks c;
  s_ts : t_start c' = t_start c }.

(* ab c: the fields S1 speaks of *)
Definition ab (c : conn) := (calls c, next_cid c, t_finish c, t_disc c, call_tasks c, t_start c).
Lemma S1_ab c c' : ab c' = ab c -> S1 c c'.
Proof.
  unfold ab. intro E. injection E as E1 E2 E3 E4 E5 E6. constructor; try assumption. rewrite E1. apply (F2_refl callrel callrel_refl).
Qed.
Lemma S1_refl c : S1 c c.
Proof. apply S1_ab. reflexivity. Qed.
Lemma S1_trans a b c : S1 a b -> S1 b c -> S1 a c.
Proof. intros [A1 A2 A3 A4 A5 A6] [B1 B2 B3 B4 B5 B6]. constructor; try congruence. exact (F2_trans callrel callrel_trans _ _ _ A1 B1). Qed.

Lemma ab_set_finish_future c : ab (set_finish_future c) = ab c.
Proof. unfold set_finish_future. destruct (finish_fut c); reflexivity. Qed.

Lemma callrel_fail_waiter f k : callrel k (fail_waiter (waiter_exc f) k).
Proof.
  unfold fail_waiter. destruct (c_fut k) eqn:E; try apply callrel_refl.
  split; [reflexivity|]. split; [reflexivity|]. right. split; [exact E|]. right. right.
  destruct (waiter_exc_is_library f) as [l Hl]. exists l. cbn. rewrite Hl. reflexivity.
Qed.

Lemma ab_add c ty h : ab (add_handler c ty h) = ab c.
Proof. unfold add_handler. destruct (existsb _ _); reflexivity. Qed.
Lemma ab_fold_add l h : forall c, ab (fold_left (fun a ty => add_handler a ty h) l c) = ab c.
Proof. apply (fold_left_view ab). intros a ty. apply ab_add. Qed.
Lemma ab_fold_remove l h : forall c, ab (fold_left (fun a ty => remove_handler a ty h) l c) = ab c.
Proof. apply (fold_left_view ab). reflexivity. Qed.

Lemma S1_upd_call c cid g : (forall k, callrel k (g k)) -> S1 c (upd_call c cid g).
Proof.
  intro H. constructor; try reflexivity. exact (F2_upd_call callrel callrel_refl c cid g H).
Qed.

Definition uniq (c : conn) : Prop := NoDup (map c_id (calls c)).
Lemma uniq_F2 (rel : call -> call -> Prop) c c' :
  (forall k k', rel k k' -> c_id k' = c_id k) -> Forall2 rel (calls c) (calls c') -> uniq c -> uniq c'.
Proof. intros Hid H U. unfold uniq. rewrite (ids_F2 rel Hid _ _ H). exact U. Qed.

Lemma S1_close c o c' : close_atom c o c' -> S1 c c'.
Proof.
  destruct 1; try (apply S1_ab; reflexivity).
  - (* ACloseState: the calls still waited for fail with an error of the library *)
    constructor; try reflexivity. cbn.
    apply (F2_map callrel). intro k. destruct (existsb _ _); [apply callrel_fail_waiter|apply callrel_refl].
Qed.
Lemma S1_cpath c o c' : cpath c o c' -> S1 c c'.
Proof. apply path_rel; [exact S1_refl|exact S1_trans|exact S1_close]. Qed.

Lemma S1_cleanup c : S1 c (fst (cleanup c)).
Proof. exact (S1_cpath _ _ _ (path_cleanup c)). Qed.
Lemma S1_send_messages c tys : S1 c (fst (fst (send_messages c tys))).
Proof. exact (S1_cpath _ _ _ (path_send_messages c tys)). Qed.

Lemma send_messages_exc c tys : match snd (send_messages c tys) with None => True | Some e => exists l, e = Lib l end.
Proof.
  unfold send_messages. destruct (negb (handshake_complete c)); [cbn; eauto|].
  destruct (write_fails c).
  - destruct (report_fatal c (Lib LSocketClosed)) as [c1 o]. cbn. eauto.
  - destruct (transport c); exact I.
Qed.

Lemma callrel_recv k m : c_fut k = CPending -> callrel k (recv k m).
Proof.
  intro Ef. unfold recv. set (k1 := if eval_pred (c_append k) m then _ else k).
  assert (E : c_id k1 = c_id k /\ c_owner k1 = c_owner k /\ c_fut k1 = c_fut k) by (unfold k1; destruct (eval_pred _ m); auto).
  destruct E as (A & B & D). destruct (eval_pred (c_stop k) m); (split; [exact A|]; split; [exact B|]).
  - right. split; [exact Ef|left; reflexivity].
  - left. exact D.
Qed.

Lemma S1_data c o c' : data_atom c o c' -> uniq c -> S1 c c'.
Proof.
  destruct 1 as [c o c' H| |c cid k m Ek Ef|c a| |]; intro U; try (apply S1_ab; reflexivity).
  - (* DClose *) exact (S1_close _ _ _ H).
  - (* DCallMsg: ids being distinct, the records of id cid are the one record k *)
    constructor; try reflexivity. unfold upd_call. cbn.
    exact (F2_upd_const callrel callrel_refl (calls c) cid k _ U Ek (callrel_recv k m Ef)).
  - (* DAction *) apply S1_ab. destruct a; [apply ab_add|reflexivity].
Qed.

Lemma S1_call_finally c cid : S1 c (call_finally c cid).
Proof.
  unfold call_finally. destruct (get_call c cid); [|apply S1_refl].
  match goal with |- context [fold_left ?f ?l ?x] => set (c2 := fold_left f l x) end.
  assert (H : S1 c c2).
  { unfold c2. eapply S1_trans; [|apply S1_ab, ab_fold_remove].
    apply S1_upd_call. intro k. unfold callrel. cbn. auto. }
  eapply S1_trans; [exact H|]. apply S1_ab. reflexivity.
Qed.

Lemma no_done_send_messages c tys : no_done (snd (fst (send_messages c tys))).
Proof. exact (no_done_cpath _ _ _ (path_send_messages c tys)). Qed.

Definition fut_ok (k : call) : Prop := forall e, c_fut k = CExc e -> e = PyTimeout \/ exists l, e = Lib l.

(* F1 c: the ids of the calls are distinct (f_uniq is `uniq c`) and below the id counter, and an exception held by a call's
   future is a time-out or an error of the library *)
Record F1 (c : conn) : Prop := {
  f_uniq : NoDup (map c_id (calls c));
  f_lt : Forall (fun k => (c_id k < next_cid c)%nat) (calls c);
  f_fut : Forall fut_ok (calls c) }.

(* S0 c c': S1 without the clauses on tasks: the calls evolve pointwise and the id counter stays.  It holds of every move
   except the registration of a call and a cancellation, and it keeps F1 *)
Record S0 (c c' : conn) : Prop := {
  z_calls : callsrel (calls c) (calls c');
  z_next : next_cid c' = next_cid c }.
(* ac c: the fields S0 and F1 speak of *)
Definition ac (c : conn) := (calls c, next_cid c).
Lemma S0_S1 c c' : S1 c c' -> S0 c c'.
Proof. intros [A B _ _ _ _]. constructor; assumption. Qed.
Lemma S0_ac c c' : ac c' = ac c -> S0 c c'.
Proof. unfold ac. intro E. injection E as E1 E2. constructor; [rewrite E1; apply (F2_refl callrel callrel_refl)|exact E2]. Qed.
Lemma S0_refl c : S0 c c.
Proof. apply S0_ac. reflexivity. Qed.

Lemma Forall2_Forall {A} (R : A -> A -> Prop) (P Q : A -> Prop) l l' :
  (forall x y, R x y -> P x -> Q y) -> Forall2 R l l' -> Forall P l -> Forall Q l'.
Proof.
  intros H F. induction F as [|x y l l' Hxy _ IH]; intro G; constructor; inversion G; subst; eauto.
Qed.

Lemma F1_S0 c c' : S0 c c' -> F1 c -> F1 c'.
Proof.
  intros [H N] [U L F]. constructor.
  - rewrite (ids_F2 callrel callrel_id _ _ H). exact U.
  - rewrite N. eapply (Forall2_Forall callrel); [|exact H|exact L]. intros x y (E & _) Hx. cbn in *. rewrite E. exact Hx.
  - eapply (Forall2_Forall callrel); [|exact H|exact F]. intros x y (_ & _ & E) Hx e He.
    destruct E as [E|[E1 E2]]; [apply Hx; congruence|].
    destruct E2 as [E2|[E2|[l E2]]]; rewrite E2 in He; try discriminate; injection He as <-; eauto.
Qed.
Lemma F1_ac c c' : ac c' = ac c -> F1 c -> F1 c'.
Proof. intro E. apply F1_S0, S0_ac, E. Qed.

Lemma ac_set_task c t k : ac (set_task c t k) = ac c.
Proof. destruct t; reflexivity. Qed.
Lemma ab_ac c c' : ab c' = ab c -> ac c' = ac c.
Proof. unfold ab, ac. intro E. injection E as E1 E2 _ _ _ _. congruence. Qed.

Lemma F1_upd_cancel c cid : F1 c -> F1 (upd_call c cid (fun x => x <| c_fut := CCancelled |>)).
Proof.
  intros [U L F]. unfold upd_call. constructor; cbn.
  - rewrite map_map. erewrite map_ext; [exact U|]. intro k. destruct (Nat.eqb _ _); reflexivity.
  - apply Forall_map. eapply Forall_impl; [|exact L]. intros k Hk. destruct (Nat.eqb _ _); exact Hk.
  - apply Forall_map. eapply Forall_impl; [|exact F]. intros k Hk. destruct (Nat.eqb _ _); [|exact Hk].
    intros e He. discriminate He.
Qed.

(* the new id is the counter, which no call has yet *)
Lemma F1_new_call c owner types ap st tmo : F1 c ->
  F1 (c <| calls := calls c ++ [new_call c owner types ap st tmo] |> <| next_cid := S (next_cid c) |> <| waiters := waiters c ++ [next_cid c] |>).
Proof.
  intros [U L F]. constructor; cbn.
  - rewrite map_app. cbn. apply NoDup_snoc; [exact U|].
    intro Hin. apply in_map_iff in Hin. destruct Hin as (k & Ek & Hk). rewrite Forall_forall in L. specialize (L k Hk). cbn in L. lia.
  - apply Forall_app. split; [eapply Forall_impl; [|exact L]; cbn; intros; lia|]. constructor; [cbn; lia|constructor].
  - apply Forall_app. split; [exact F|]. constructor; [|constructor]. intros e He. discriminate He.
Qed.

Lemma F1_register_call c owner types ap st tmo : F1 c -> F1 (register_call c owner types ap st tmo).
Proof. intro F. unfold register_call. eapply F1_ac; [apply ab_ac, ab_fold_add|]. apply F1_new_call, F. Qed.

Lemma callrel_timeout k : callrel k ((match c_fut k with CPending => k <| c_fut := CExc PyTimeout |> | _ => k end) <| c_timer := None |>).
Proof.
  destruct (c_fut k) eqn:Ef; (split; [reflexivity|]; split; [reflexivity|]); try (left; cbn; congruence).
  right. split; [exact Ef|]. right. left. reflexivity.
Qed.

Lemma F1_step l c o c' : step_atom l c o c' -> F1 c -> F1 c'.
Proof.
  destruct 1; try (apply F1_ac; reflexivity); try (apply F1_ac, ac_set_task).
  - (* SClose *)
    match goal with H : close_atom _ _ _ |- _ => exact (F1_S0 _ _ (S0_S1 _ _ (S1_close _ _ _ H))) end.
  - (* SData: ids are distinct *)
    intro F. match goal with H : data_atom _ _ _ |- _ => exact (F1_S0 _ _ (S0_S1 _ _ (S1_data _ _ _ H (f_uniq _ F))) F) end.
  - (* SNewCall *) apply F1_register_call.
  - (* SCallFinally *) apply F1_S0, S0_S1, S1_call_finally.
  - (* SNextCid: the counter only grows *)
    intros [U L F]. constructor; [exact U| |exact F]. cbn. eapply Forall_impl; [|exact L]. cbn. intros k Hk. lia.
  - (* SCallTimeout *) apply F1_S0, S0_S1, S1_upd_call, callrel_timeout.
  - (* SCallCancel *) apply F1_upd_cancel.
  - (* SHsDone *)
    apply F1_ac. unfold internal_handlers. rewrite !(ab_ac _ _ (ab_add _ _ _)). reflexivity.
  - (* SSub *) apply F1_ac, ab_ac, ab_add.
Qed.
Lemma F1_spath l c o c' : spath l c o c' -> F1 c -> F1 c'.
Proof. apply path_inv. exact (F1_step l). Qed.

Lemma no_done_call_begin c owner send types ap st tmo : no_done (snd (fst (fst (call_begin c owner send types ap st tmo)))).
Proof.
  unfold call_begin. pose proof (no_done_send_messages c send) as H. destruct (send_messages c send) as [[c1 o] ex]. cbn [fst snd] in H.
  destruct ex; exact H.
Qed.
Lemma call_begin_exc c owner send types ap st tmo :
  match snd (fst (call_begin c owner send types ap st tmo)) with None => True | Some e => exists l, e = Lib l end.
Proof.
  unfold call_begin. pose proof (send_messages_exc c send) as H. destruct (send_messages c send) as [[c1 o] ex]. cbn [snd] in H.
  destruct ex; exact H.
Qed.

Lemma call_begin_next c owner send types ap st tmo :
  (next_cid (fst (fst (fst (call_begin c owner send types ap st tmo)))) <= S (next_cid c))%nat.
Proof.
  unfold call_begin. pose proof (S1_send_messages c send) as H. destruct (send_messages c send) as [[c1 o] ex]. cbn [fst] in H.
  destruct H as [_ N _ _ _ _]. destruct ex; cbn [fst]; [lia|].
  rewrite (s_next _ _ (S1_ab _ _ (ab_fold_add _ _ _))). cbn. lia.
Qed.

Lemma F1_get_call c cid kk : F1 c -> get_call c cid = Some kk -> fut_ok kk.
Proof.
  intros [_ _ F] E. unfold get_call in E. apply find_some in E. destruct E as [Hin _].
  rewrite Forall_forall in F. exact (F kk Hin).
Qed.

Lemma deliver_cases kk : fut_ok kk ->
  deliver_cfut (c_fut kk) = DOk \/ (exists l, deliver_cfut (c_fut kk) = DExc (Lib l)) \/ deliver_cfut (c_fut kk) = DExc CancelledErr.
Proof.
  intro F. unfold fut_ok in F. destruct (c_fut kk) eqn:E; cbn; auto.
  destruct (F e eq_refl) as [->|[l ->]]; cbn; eauto.
Qed.

Definition utask (t : tid) : bool := match t with TDisc | TCall _ => true | _ => false end.
Definition res_ok (t : tid) (r : tres) : Prop :=
  r = TOk \/ (exists l, r = TRaise (Lib l)) \/ (r = TRaise CancelledErr /\ utask t = true).
Definition outs_ok (o : list obs) : Prop := forall t r, In (OTaskDone t r) o -> res_ok t r.

Lemma outs_ok_app a b : outs_ok a -> outs_ok b -> outs_ok (a ++ b).
Proof. intros A B t r H. apply in_app_or in H. destruct H; auto. Qed.
Lemma outs_ok_nodone o : no_done o -> outs_ok o.
Proof. intros H t r Hin. exfalso. exact (H _ _ Hin). Qed.
Lemma outs_ok_nil : outs_ok [].
Proof. intros t r []. Qed.
Lemma outs_ok_one t r : res_ok t r -> outs_ok [OTaskDone t r].
Proof. intros H t' r' [E|[]]. injection E as <- <-. exact H. Qed.
Lemma outs_ok_then_done o t r : no_done o -> res_ok t r -> outs_ok (o ++ [OTaskDone t r]).
Proof. intros D H. apply outs_ok_app; [apply outs_ok_nodone, D|apply outs_ok_one, H]. Qed.
Lemma res_ok_wrap t c e : res_ok t (TRaise (wrap_fatal c e)).
Proof. right. left. destruct (wrap_fatal_is_library c e) as [l H]. exists l. rewrite H. reflexivity. Qed.
Lemma res_ok_disc_cancel : res_ok TDisc (TRaise CancelledErr).
Proof. right. right. split; reflexivity. Qed.

Lemma done_runs l c o c' : step_atom l c o c' -> forall t r, In (OTaskDone t r) o -> runs l t.
Proof.
  destruct 1; intros t' r' Hin; try (destruct Hin; fail);
    try (destruct Hin as [Q|[]]; first [discriminate Q|injection Q as <- _; assumption]).
  - (* SClose *) match goal with H : close_atom _ _ _ |- _ => exact (False_ind _ (no_done_close _ _ _ H _ _ Hin)) end.
  - (* SData *) match goal with H : data_atom _ _ _ |- _ => exact (False_ind _ (no_done_data _ _ _ H _ _ Hin)) end.
Qed.
Lemma done_runs_path l c o c' : spath l c o c' -> forall t r, In (OTaskDone t r) o -> runs l t.
Proof.
  apply (path_rel_obs (step_atom l) (fun _ o _ => forall t r, In (OTaskDone t r) o -> runs l t)); [intros _ t r []| |exact (done_runs l)].
  intros a o1 b o2 d H1 H2 t r Hin. apply in_app_or in Hin. destruct Hin; eauto.
Qed.

(* The two connect phases never end with a cancellation (ConnErrors.done_ok); waking a task ends no other, so what is known
   of the woken task's results covers all observations. *)
Lemma outs_ok_wake t c o c' : spath (LWake t) c o c' -> done_ok t o -> outs_ok o.
Proof.
  intros P D t' r Hin. assert (E : t' = t) by exact (done_runs_path _ _ _ _ P t' r Hin). subst t'.
  destruct (D r Hin) as [A|A]; [left; exact A|right; left; exact A].
Qed.

(* for start_connection see ConnErrors.start_task_classified *)
Lemma finish_success_classified c : done_ok TFinish (snd (finish_success c)).
Proof.
  unfold finish_success. set (c2 := set_finish_future _). destruct (cs c2); try (apply done_ok_one; left; reflexivity).
  exact (cleanup_finish_classified c2 TFinish (fun x => x) Interrupted).
Qed.

Lemma finish_after_ready_classified c : done_ok TFinish (snd (finish_after_ready c)).
Proof.
  unfold finish_after_ready. set (c0 := c <| hs_timer := None |>). destruct (cs c0); try apply finish_fail_classified.
  all: match goal with |- context [call_begin ?x ?a ?b ?d ?e ?f ?g] =>
         pose proof (no_done_call_begin x a b d e f g) as D; destruct (call_begin x a b d e f g) as [[[c2 o] ex] cid] end;
       cbn [fst snd] in D; destruct ex as [e|]; [|exact (no_done_ok _ _ D)];
       pose proof (finish_fail_classified c2 e) as B; destruct (finish_fail c2 e) as [c3 o3];
       apply done_ok_app; [apply no_done_ok, D|exact B].
Qed.

Lemma wake_finish_classified c c' o : wake_finish c = Some (c', o) -> done_ok TFinish o.
Proof.
  assert (fin : forall r, Some r = Some (c', o) -> done_ok TFinish (snd r) -> done_ok TFinish o)
    by (intros r E B; apply some_inj in E; subst r; exact B).
  unfold wake_finish. intro E. destruct (pc (get_task c TFinish)) as [| | | | |cid| | | |]; try discriminate.
  - (* PF_Create *)
    destruct (_ || _); [|discriminate]. destruct (take_cancel c TFinish) as [c1 mc].
    match type of E with match ?d with _ => _ end = _ => destruct d as [|e] end.
    + destruct (ready _); apply (fin _ E); first [apply finish_after_ready_classified|apply finish_fail_classified|apply done_ok_nil].
    + match type of E with context [finish_fail ?x e] =>
        pose proof (finish_fail_classified x e) as B; destruct (finish_fail x e) as [c3 o3] end.
      apply (fin _ E), done_ok_app; [apply no_done_ok, no_done_lit; destruct (transport c1); reflexivity|exact B].
  - (* PF_Ready *)
    destruct (_ || _); [|discriminate]. destruct (take_cancel c TFinish) as [c1 mc].
    destruct mc; [|destruct (ready c1)]; apply (fin _ E); first [apply finish_after_ready_classified|apply finish_fail_classified].
  - (* PF_Hello *)
    destruct (get_call c cid) as [kk|]; [|discriminate]. destruct (_ || _); [|discriminate]. destruct (take_cancel c TFinish) as [c1 mc].
    match type of E with match ?d with _ => _ end = _ => destruct d as [|e] end; [destruct (check_hello_login _ _)|];
      apply (fin _ E); first [apply finish_success_classified|apply finish_fail_classified].
Qed.

(* A1 c r: the result r (state and observations) of a function run from c keeps F1 and ends tasks with classified outcomes only *)
Definition A1 (c : conn) (r : conn * list obs) : Prop := F1 c -> F1 (fst r) /\ outs_ok (snd r).
Lemma A1_S0 c r : S0 c (fst r) /\ outs_ok (snd r) -> A1 c r.
Proof. intros [A B] H. split; [eapply F1_S0; eassumption|exact B]. Qed.

Lemma disconnect_after_wait_ok c : outs_ok (snd (disconnect_after_wait c)).
Proof.
  unfold disconnect_after_wait, finish_task. set (c1 := c <| expected_disconnect := true |>). destruct (handshake_complete c1).
  - match goal with |- context [call_begin c1 ?a ?b ?d ?e ?f ?g] =>
      pose proof (no_done_call_begin c1 a b d e f g) as D; pose proof (call_begin_exc c1 a b d e f g) as X;
      destruct (call_begin c1 a b d e f g) as [[[c2 o] ex] cid] end.
    cbn [fst snd] in D, X. destruct ex as [e|]; [destruct X as [l ->]|exact (outs_ok_nodone _ D)].
    pose proof (no_done_cleanup c2) as D3. destruct (cleanup c2) as [c3 o3]. cbn [snd] in *.
    apply outs_ok_app; [apply outs_ok_nodone, D|]. apply outs_ok_then_done; [exact D3|left; reflexivity].
  - pose proof (no_done_cleanup c1) as D3. destruct (cleanup c1) as [c3 o3]. cbn [snd] in *.
    apply outs_ok_then_done; [exact D3|left; reflexivity].
Qed.

(* the answer to the disconnect request: an error of the library is logged, a cancellation ends the task *)
Lemma wake_disc_ok c c' o : F1 c -> wake_disc c = Some (c', o) -> outs_ok o.
Proof.
  assert (fin : forall r, Some r = Some (c', o) -> outs_ok (snd r) -> outs_ok o) by (intros r E B; apply some_inj in E; subst r; exact B).
  intro H. unfold wake_disc. intro E. destruct (pc (get_task c TDisc)) as [| | | | | | |cid| |]; try discriminate.
  - (* PD_Wait *)
    destruct (_ || _); [|discriminate]. destruct (take_cancel c TDisc) as [c1 mc].
    destruct mc; apply (fin _ E); [apply outs_ok_one, res_ok_disc_cancel|apply disconnect_after_wait_ok].
  - (* PD_Resp cid *)
    destruct (get_call c cid) as [kk|] eqn:Eg; [|discriminate]. destruct (_ || _); [|discriminate].
    destruct (take_cancel c TDisc) as [c1 mc]. cbv zeta in E.
    pose proof (no_done_cleanup (call_finally c1 cid)) as D3. destruct (cleanup (call_finally c1 cid)) as [c3 o3]. cbn [snd] in D3.
    assert (T1 : outs_ok (snd (fst (finish_task c3 TDisc TOk), o3 ++ snd (finish_task c3 TDisc TOk))))
      by (apply outs_ok_then_done; [exact D3|left; reflexivity]).
    destruct mc; [|destruct (deliver_cases kk (F1_get_call c cid kk H Eg)) as [DC|[[l DC]|DC]]; rewrite DC in E];
      apply (fin _ E); first [exact T1|apply outs_ok_one, res_ok_disc_cancel].
Qed.

Lemma wake_call_ok c cid c' o : F1 c -> wake_call c cid = Some (c', o) -> outs_ok o.
Proof.
  intro H. unfold wake_call. intro E. destruct (pc (get_task c (TCall cid))); try discriminate.
  destruct (get_call c cid) as [kk|] eqn:Eg; [|discriminate]. destruct (_ || _); [|discriminate].
  destruct (take_cancel c (TCall cid)) as [c1 mc]. apply some_pair_inv in E. destruct E as [_ <-]. apply outs_ok_one.
  destruct mc; [right; right; split; reflexivity|].
  destruct (deliver_cases kk (F1_get_call c cid kk H Eg)) as [DC|[[l DC]|DC]]; rewrite DC;
    [left; reflexivity|right; left; eauto|right; right; split; reflexivity].
Qed.

Theorem step_outcomes c l c' o : F1 c -> step c l = Some (c', o) -> F1 c' /\ outs_ok o.
Proof.
  intros H E. pose proof (step_path _ _ _ _ E) as P. split; [exact (F1_spath l _ _ _ P H)|].
  destruct l; try (apply outs_ok_nodone; intros t' r' Hin; exact (done_runs_path _ _ _ _ P t' r' Hin)); cbn [step] in E.
  - (* LDisconnect *)
    destruct (pc (t_disc c)); try discriminate. destruct (finish_fut c);
      [|apply some_pair_inv in E; destruct E as [_ <-]; apply outs_ok_nil|];
      apply some_inj in E; (match type of E with disconnect_after_wait ?x = _ => pose proof (disconnect_after_wait_ok x) as B end);
      rewrite E in B; exact B.
  - (* LCallStart: a request that cannot be sent ends with the error of the library *)
    match type of E with context [call_begin ?x ?a ?b ?d ?e ?f ?g] =>
      pose proof (no_done_call_begin x a b d e f g) as D; pose proof (call_begin_exc x a b d e f g) as X;
      destruct (call_begin x a b d e f g) as [[[c1 o1] ex] cid'] end.
    cbn [fst snd] in D, X. destruct ex as [e|]; apply some_pair_inv in E; destruct E as [_ <-]; [|exact (outs_ok_nodone _ D)].
    destruct X as [lb ->]. apply outs_ok_then_done; [exact D|right; left; eauto].
  - (* LWake *)
    destruct t.
    + exact (outs_ok_wake TStart _ _ _ P (start_task_classified c c' o E)).
    + exact (outs_ok_wake TFinish _ _ _ P (wake_finish_classified c c' o E)).
    + exact (wake_disc_ok c c' o H E).
    + exact (wake_call_ok c cid c' o H E).
Qed.

Lemma F1_init n e ka scr : F1 (init n e ka scr).
Proof. constructor; cbn; constructor. Qed.

Theorem run_outcomes ls : forall c c' os, F1 c -> run c ls = Some (c', os) -> F1 c' /\ Forall outs_ok os.
Proof.
  induction ls as [|l ls IHl]; intros c c' os H E.
  - apply some_pair_inv in E. destruct E as [<- <-]. split; [exact H|constructor].
  - destruct (run_cons _ _ _ _ _ E) as (c1 & o & os2 & Es & Er & ->).
    destruct (step_outcomes c l c1 o H Es) as [H1 O1]. destruct (IHl c1 c' os2 H1 Er) as [H2 O2].
    split; [exact H2|constructor; assumption].
Qed.

(* every future of the call table of a reachable state holds the result, a time-out, a library error or a cancellation *)
Theorem reachable_futures_classified n e ka scr ls c os k :
  run (init n e ka scr) ls = Some (c, os) -> In k (calls c) -> forall x, c_fut k = CExc x -> x = PyTimeout \/ exists l, x = Lib l.
Proof.
  intros E Hin. destruct (run_outcomes ls _ _ _ (F1_init n e ka scr) E) as [[_ _ F] _].
  rewrite Forall_forall in F. exact (F k Hin).
Qed.
