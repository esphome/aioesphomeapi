(* C15: what a well-formed command writes, for every environment (every subset of supplied arguments, every value). *)
From Coq Require Import ZArith String List Bool.
From Verif Require Import Model.Schema Model.CommandIR Proofs.ListFacts Proofs.SchemaProofs.
Import ListNotations.
Open Scope string_scope.
Open Scope list_scope.

Lemma get_cons_same f v m : get f ((f, v) :: m) = Some v.
Proof. cbn. rewrite String.eqb_refl. reflexivity. Qed.

Lemma get_cons_other f g v m : g <> f -> get f ((g, v) :: m) = get f m.
Proof. intro H. apply String.eqb_neq in H. cbn. rewrite H. reflexivity. Qed.

Section Exec.
  Variable ev : env.
  Variable apiv : Z * Z.

  Lemma fold_untouched_of fuel f :
    (forall s m, ~ In f (fields_of fuel s) -> get f (exec_stmt fuel ev apiv s m) = get f m) ->
    forall ss m, ~ In f (flat_map (fields_of fuel) ss) -> get f (fold_left (fun acc x => exec_stmt fuel ev apiv x acc) ss m) = get f m.
  Proof.
    intro Hs. induction ss as [|s ss IH]; intros m Hn; [reflexivity|].
    cbn [fold_left flat_map] in *. rewrite in_app_iff in Hn. rewrite IH, Hs by tauto. reflexivity.
  Qed.

  Lemma exec_stmt_untouched fuel f : forall s m, ~ In f (fields_of fuel s) -> get f (exec_stmt fuel ev apiv s m) = get f m.
  Proof.
    induction fuel as [|n IH]; intros s m Hn; [reflexivity|].
    destruct s as [g e|c th el]; cbn [exec_stmt fields_of] in *.
    - apply get_cons_other. cbn in Hn. tauto.
    - rewrite in_app_iff in Hn. destruct (holds ev apiv c); apply (fold_untouched_of n f IH); tauto.
  Qed.

  Lemma fold_untouched fuel f ss m : ~ In f (flat_map (fields_of fuel) ss) -> get f (fold_left (fun acc x => exec_stmt fuel ev apiv x acc) ss m) = get f m.
  Proof. apply fold_untouched_of, exec_stmt_untouched. Qed.

  (* 8 is the fuel that exec_list and stmt_fields both give a statement *)
  Lemma exec_list_untouched ss m f : ~ In f (flat_map stmt_fields ss) -> get f (exec_list ev apiv ss m) = get f m.
  Proof. apply (fold_untouched 8). Qed.

  Lemma exec_list_app a b m : exec_list ev apiv (a ++ b) m = exec_list ev apiv b (exec_list ev apiv a m).
  Proof. apply fold_left_app. Qed.

  Theorem field_local pre s post m f :
    ~ In f (flat_map stmt_fields post) ->
    get f (exec_list ev apiv (pre ++ s :: post) m) = get f (exec_stmt 8 ev apiv s (exec_list ev apiv pre m)).
  Proof. intro Hpost. rewrite exec_list_app. apply (exec_list_untouched post), Hpost. Qed.

  (* one unit of fuel opens the block *)
  Theorem block_not_taken fuel p th m : ev p = None -> exec_stmt (S fuel) ev apiv (SIf (CNotNone p) th []) m = m.
  Proof. intro H. cbn [exec_stmt holds]. rewrite H. reflexivity. Qed.

  (* the statements of a block run with what fuel is left after opening it, and an assignment takes one unit *)
  Lemma fold_assign_last fuel th : forall m f e,
    In (SAssign f e) th -> NoDup (flat_map (fields_of (S fuel)) th) ->
    get f (fold_left (fun acc x => exec_stmt (S fuel) ev apiv x acc) th m) = Some (eval ev e).
  Proof.
    induction th as [|x th IH]; intros m f e Hin Hnd; [destruct Hin|].
    cbn [fold_left flat_map] in *. destruct Hin as [->|Hin].
    - (* assigned here; later statements do not mention f *)
      apply NoDup_cons_iff in Hnd. rewrite fold_untouched by apply Hnd. apply get_cons_same.
    - apply NoDup_app_r in Hnd. apply IH; assumption.
  Qed.

  Theorem block_taken fuel p v th m f e :
    ev p = Some v -> In (SAssign f e) th -> NoDup (fields_of (S (S fuel)) (SIf (CNotNone p) th [])) ->
    get f (exec_stmt (S (S fuel)) ev apiv (SIf (CNotNone p) th []) m) = Some (eval ev e).
  Proof.
    intros Hp Hin Hnd. cbn [exec_stmt holds fields_of flat_map] in *. rewrite Hp. rewrite app_nil_r in Hnd.
    apply fold_assign_last; assumption.
  Qed.
End Exec.

Lemma disjoint_lists_cons l r :
  disjoint_lists (l :: r) = true -> (forall x, In x l -> ~ In x (concat r)) /\ disjoint_lists r = true.
Proof.
  cbn [disjoint_lists]. intro H. apply andb_true_iff in H. destruct H as [H Hr]. split; [|exact Hr].
  rewrite forallb_forall in H. intros x Hx Hc. apply in_concat in Hc. destruct Hc as (l2 & Hl2 & Hin).
  apply H, negb_true_iff, not_true_iff_false in Hx. apply Hx, existsb_exists. exists l2.
  split; [exact Hl2|apply (memb_In _ String.eqb_eq), Hin].
Qed.

(* the check compares each list with the later ones only; disjointness is symmetric *)
Lemma disjoint_lists_app a : forall l b x,
  disjoint_lists (a ++ l :: b) = true -> In x l -> ~ In x (concat (a ++ b)).
Proof.
  induction a as [|h a IH]; intros l b x H Hx; cbn [app] in *; apply disjoint_lists_cons in H; destruct H as [Hh Ht].
  - exact (Hh x Hx).
  - cbn [concat]. rewrite in_app_iff. intros [Hin|Hin]; [|exact (IH l b x Ht Hx Hin)].
    apply (Hh x Hin). rewrite concat_app. cbn [concat]. rewrite !in_app_iff. tauto.
Qed.

Lemma disjoint_stmts a s b f :
  disjoint_lists (map stmt_fields (a ++ s :: b)) = true -> In f (stmt_fields s) -> ~ In f (flat_map stmt_fields (a ++ b)).
Proof. rewrite flat_map_concat_map, !map_app. apply disjoint_lists_app. Qed.

(* Of [wf], only two checks are needed: the statements of init and body mention pairwise disjoint fields, and no
   statement of the body mentions a field twice.  With them the init statements and the body are one list in which
   the block is the only statement that mentions its fields. *)
Theorem wf_sound c ev apiv :
  wf c = true ->
  (forall pre p th post, c_body c = pre ++ SIf (CNotNone p) th [] :: post ->
     (ev p = None -> forall f, In f (stmt_fields (SIf (CNotNone p) th [])) -> get f (exec c ev apiv) = None) /\
     (forall v, ev p = Some v -> forall f e, In (SAssign f e) th -> get f (exec c ev apiv) = Some (eval ev e))) /\
  (forall f, ~ In f (flat_map stmt_fields (c_init c ++ c_body c)) -> get f (exec c ev apiv) = None).
Proof.
  (* wf is six checks joined by && to the left; the second is Hnd, the third Hdis *)
  unfold wf. rewrite !andb_true_iff. intros [[[[[_ Hnd] Hdis] _] _] _].
  rewrite <- map_app in Hdis.
  replace (exec c ev apiv) with (exec_list ev apiv (c_init c ++ c_body c) []) by apply exec_list_app.
  split; [|intro f; apply exec_list_untouched].
  intros pre p th post Eb. rewrite Eb, app_assoc in *.
  assert (Hout : forall f, In f (stmt_fields (SIf (CNotNone p) th [])) ->
            ~ In f (flat_map stmt_fields (c_init c ++ pre)) /\ ~ In f (flat_map stmt_fields post)).
  { intros f Hf. apply (disjoint_stmts _ _ _ _ Hdis) in Hf. rewrite flat_map_app, in_app_iff in Hf. tauto. }
  split.
  - intros Hp f Hf. apply Hout in Hf. destruct Hf as [Hpre Hpost].
    rewrite field_local, block_not_taken, exec_list_untouched by assumption. reflexivity.
  - intros v Hp f e Hin.
    assert (Hf : In f (stmt_fields (SIf (CNotNone p) th []))).
    { apply in_or_app. left. apply in_flat_map. exists (SAssign f e). split; [exact Hin|left; reflexivity]. }
    rewrite field_local by apply Hout, Hf. apply block_taken with (v := v); [exact Hp|exact Hin|].
    apply (nodupb_NoDup _ String.eqb_eq). rewrite forallb_forall in Hnd. apply Hnd, in_elt.
Qed.
