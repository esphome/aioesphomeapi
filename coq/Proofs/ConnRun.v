(* Reachability: the invariant holds in every state of every run from the initial state,
   for every label sequence (= every interleaving of user calls, device events, timers and task wake-ups). *)
From Coq Require Import NArith ZArith List Bool Lia Relations.
From RecordUpdate Require Import RecordSet.
From Verif Require Import Generated.GenConstants Model.Conn Proofs.ConnMoves Proofs.ConnCore Proofs.ConnSync Proofs.ConnStep Proofs.ConnStep2 Proofs.ConnStep3.
Import ListNotations RecordSetNotations.
Open Scope Z_scope.
Open Scope list_scope.

Definition reachable (c : conn) : Prop :=
  exists n e ka scr ls os, run (init n e ka scr) ls = Some (c, os).

Lemma Inv_init n e ka scr : Inv (init n e ka scr).
Proof.
  unfold Inv, InvK, flagsK, JK, StopK, ClosedK, init, core_of. cbn.
  repeat split; try tauto; try discriminate; intros; try discriminate; auto.
Qed.

Lemma run_app c ls1 ls2 :
  run c (ls1 ++ ls2) =
  match run c ls1 with
  | Some (c1, os1) => match run c1 ls2 with Some (c2, os2) => Some (c2, os1 ++ os2) | None => None end
  | None => None
  end.
Proof.
  revert c. induction ls1 as [|l ls1 IH]; intro c; cbn [run app].
  - destruct (run c ls2) as [[c2 os2]|]; reflexivity.
  - destruct (step c l) as [[c1 o]|]; [|reflexivity]. rewrite IH.
    destruct (run c1 ls1) as [[c2 os1]|]; [|reflexivity].
    destruct (run c2 ls2) as [[c3 os2]|]; reflexivity.
Qed.

Lemma run_inv ls : forall c c' os, Inv c -> run c ls = Some (c', os) -> Inv c'.
Proof. apply run_invariant. intros c l c' o H E. exact (proj1 (step_ok c l c' o E H)). Qed.

Lemma reachable_inv c : reachable c -> Inv c.
Proof. intros (n & e & ka & scr & ls & os & E). eapply run_inv; [apply Inv_init|exact E]. Qed.

Lemma reachable_step c l c' o : reachable c -> step c l = Some (c', o) -> reachable c'.
Proof.
  intros (n & e & ka & scr & ls & os & E) Es. exists n, e, ka, scr, (ls ++ [l]), (os ++ [o]).
  rewrite run_app, E. cbn [run]. rewrite Es. reflexivity.
Qed.

(* C05: the visible state only moves forward *)
Definition flags_ok (c : conn) : Prop :=
  (is_connected c = true <-> cs c = Connected) /\
  (handshake_complete c = true <-> (cs c = HsDone \/ cs c = Connected)).

Lemma Inv_flags c : Inv c -> flags_ok c.
Proof.
  intros ((F1 & F2) & _). cbn in F1, F2. unfold flags_ok. rewrite F1, F2.
  destruct (cs c); split; split; intro Q; try discriminate; try reflexivity; auto; destruct Q; discriminate.
Qed.

Lemma state_forward c l c' o :
  reachable c -> step c l = Some (c', o) ->
  trans_ok (cs c) (cs c') /\ (cs c = Closed -> cs c' = Closed) /\ flags_ok c /\ flags_ok c'.
Proof.
  intros Hr Es. pose proof (reachable_inv c Hr) as H. destruct (step_ok _ _ _ _ Es H) as [H' T].
  split; [exact T|]. split; [|split; apply Inv_flags; assumption].
  intro Hc. rewrite Hc in T. destruct T as [T|[[T _]|[[T _]|[[T _]|T]]]]; try discriminate; congruence.
Qed.

Definition rank (s : cstate) : nat :=
  match s with Init => 0 | SockOpen => 1 | HsDone => 2 | Connected => 3 | Closed => 4 end.
Lemma trans_ok_rank s s' : trans_ok s s' -> (rank s <= rank s')%nat.
Proof. intros [->|[[-> ->]|[[-> ->]|[[-> ->]| ->]]]]; cbn; try lia. destruct s; cbn; lia. Qed.

Lemma run_rank ls : forall c c' os, Inv c -> run c ls = Some (c', os) -> (rank (cs c) <= rank (cs c'))%nat.
Proof.
  intros c c' os H E.
  refine (proj2 (run_invariant (fun x => Inv x /\ (rank (cs c) <= rank (cs x))%nat) _ ls c c' os (conj H (le_n _)) E)).
  intros x l x' o [Hx Le] Es. destruct (step_ok _ _ _ _ Es Hx) as [H1 T]. apply trans_ok_rank in T. split; [exact H1|lia].
Qed.

(* the single-use guards of start_connection / finish_connection *)
Lemma start_guard c : cs c <> Init -> step c LStart = Some (c, [ORaise RuntimeErr]).
Proof. intro Hn. cbn [step]. destruct (cs c); try reflexivity. contradiction. Qed.
Lemma finish_guard c lg : cs c <> SockOpen -> step c (LFinish lg) = Some (c, [ORaise RuntimeErr]).
Proof. intro Hn. cbn [step]. destruct (cs c); try reflexivity. contradiction. Qed.
(* one connect attempt per object *)
Lemma start_accepted c c' o :
  step c LStart = Some (c', o) -> o = [] -> cs c = Init /\ pc (t_start c) = PNone /\ pc (t_start c') = PS_Resolve.
Proof.
  cbn [step]. destruct (cs c); try (intros E ->; discriminate).
  destruct (pc (t_start c)) eqn:Ep; try discriminate. intros E _. injection E as <- _. auto.
Qed.

(* C07 (ghost level): stop callback bookkeeping *)
Lemma stop_once c :
  reachable c ->
  (stop_calls c = [] \/ exists b, stop_calls c = [b]) /\
  ((exists b, stop_calls c = [b]) <-> (ever_connected c = true /\ cs c = Closed)) /\
  (ever_connected c = true <-> (cs c = Connected \/ (cs c = Closed /\ stop_calls c <> []))).
Proof.
  intro Hr. pose proof (reachable_inv c Hr) as (F & J & (S1 & S2 & S3 & S4 & S5) & C). cbn in *.
  destruct (on_stop_armed c) eqn:Ea.
  - (* still armed: never called *)
    specialize (S1 eq_refl). rewrite S1. split; [auto|]. split.
    + split; [intros [b Q]; discriminate|]. intros [He Hc]. specialize (S5 Hc He). discriminate.
    + split.
      * intro He. destruct (S3 He) as [Q|Q]; [auto|]. specialize (S5 Q He). discriminate.
      * intros [Q|[_ Q]]; [auto|contradiction].
  - (* fired: called once, on the close of a connection that had been up *)
    destruct (S2 eq_refl) as (He & Hc & b & Hb). rewrite Hb. split; [eauto|]. split.
    + split; eauto.
    + split; [intro; right; split; [exact Hc|discriminate]|auto].
Qed.

(* C08 (state level): a closed connection holds nothing *)
Lemma closed_released c :
  reachable c -> cs c = Closed ->
  ping_timer c = None /\ pong_timer c = None /\ waiters c = [] /\ socket c = false /\
  (helper c = HNone \/ pc (t_finish c) = PF_Ready) /\ is_connected c = false /\ handshake_complete c = false.
Proof.
  intros Hr Hc. pose proof (reachable_inv c Hr) as ((F1 & F2) & J & S & C). cbn in *.
  specialize (C Hc). rewrite Hc in F1, F2. tauto.
Qed.
