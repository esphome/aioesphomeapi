(* Several sessions in one process.

   Every model of this development describes ONE object (a connection, a frame helper, a keep-alive schedule ...). A process
   holds many of them; the models have no state outside the object, so a process is the interleaving product of the machines.
   This file proves, for ANY partial step function, that in every run of the product each component sees exactly its own
   labels: its state and its observations are those of its own run on the sub-sequence of labels addressed to it, whatever
   the other component does in between, and the other component can never disable one of its steps. Every theorem proved about
   single runs therefore holds for each session of a process.

   What this rests on is that the CODE has no state outside the object either (no module-level cache, table or scratch buffer
   through which two sessions meet). That is not proved here; it is what the two-session probes of the checks test
   (C02 neighbour_probe, C05 crowd_probe, C07 siblings_probe, C10 neighbour session, C12 neighbour_answer_probe,
   C20 overlapping_resolves_probe), on the schedules they run. *)
From Coq Require Import List.
Import ListNotations.

Section Product.
  Variables SA SB LA LB OA OB : Type.
  Variable stepA : SA -> LA -> option (SA * OA).
  Variable stepB : SB -> LB -> option (SB * OB).

  Inductive plabel := PA (l : LA) | PB (l : LB).
  Inductive pobs := OPA (o : OA) | OPB (o : OB).

  Definition pstep (s : SA * SB) (l : plabel) : option ((SA * SB) * pobs) :=
    match l with
    | PA a => match stepA (fst s) a with Some (a1, o) => Some ((a1, snd s), OPA o) | None => None end
    | PB b => match stepB (snd s) b with Some (b1, o) => Some ((fst s, b1), OPB o) | None => None end
    end.

  Fixpoint runA (s : SA) (ls : list LA) : option (SA * list OA) :=
    match ls with
    | [] => Some (s, [])
    | l :: r => match stepA s l with
                | None => None
                | Some (s1, o) => match runA s1 r with Some (s2, os) => Some (s2, o :: os) | None => None end
                end
    end.

  Fixpoint runB (s : SB) (ls : list LB) : option (SB * list OB) :=
    match ls with
    | [] => Some (s, [])
    | l :: r => match stepB s l with
                | None => None
                | Some (s1, o) => match runB s1 r with Some (s2, os) => Some (s2, o :: os) | None => None end
                end
    end.

  Fixpoint prun (s : SA * SB) (ls : list plabel) : option ((SA * SB) * list pobs) :=
    match ls with
    | [] => Some (s, [])
    | l :: r => match pstep s l with
                | None => None
                | Some (s1, o) => match prun s1 r with Some (s2, os) => Some (s2, o :: os) | None => None end
                end
    end.

  Fixpoint labelsA (ls : list plabel) : list LA :=
    match ls with [] => [] | PA a :: r => a :: labelsA r | PB _ :: r => labelsA r end.
  Fixpoint labelsB (ls : list plabel) : list LB :=
    match ls with [] => [] | PB b :: r => b :: labelsB r | PA _ :: r => labelsB r end.
  Fixpoint obsA (os : list pobs) : list OA :=
    match os with [] => [] | OPA o :: r => o :: obsA r | OPB _ :: r => obsA r end.
  Fixpoint obsB (os : list pobs) : list OB :=
    match os with [] => [] | OPB o :: r => o :: obsB r | OPA _ :: r => obsB r end.

  Theorem product_projects : forall ls a b a' b' os,
    prun (a, b) ls = Some ((a', b'), os) ->
    runA a (labelsA ls) = Some (a', obsA os) /\ runB b (labelsB ls) = Some (b', obsB os).
  Proof.
    induction ls as [|l r IH]; intros a b a' b' os H; cbn in *.
    - injection H as <- <- <-. split; reflexivity.
    - destruct l as [la|lb]; cbn in H.
      + destruct (stepA a la) as [[a1 o]|] eqn:E; [|discriminate].
        destruct (prun (a1, b) r) as [[[a2 b2] os2]|] eqn:R; [|discriminate].
        injection H as <- <- <-.
        destruct (IH _ _ _ _ _ R) as [HA HB].
        cbn. rewrite E, HA. split; [reflexivity|exact HB].
      + destruct (stepB b lb) as [[b1 o]|] eqn:E; [|discriminate].
        destruct (prun (a, b1) r) as [[[a2 b2] os2]|] eqn:R; [|discriminate].
        injection H as <- <- <-.
        destruct (IH _ _ _ _ _ R) as [HA HB].
        cbn. rewrite E, HB. split; [exact HA|reflexivity].
  Qed.

  (* the converse: one session never disables, delays or reorders the steps of another *)
  Theorem product_enabled : forall ls a b a' b' oa ob,
    runA a (labelsA ls) = Some (a', oa) -> runB b (labelsB ls) = Some (b', ob) ->
    exists os, prun (a, b) ls = Some ((a', b'), os) /\ obsA os = oa /\ obsB os = ob.
  Proof.
    induction ls as [|l r IH]; intros a b a' b' oa ob HA HB; cbn in *.
    - injection HA as <- <-. injection HB as <- <-. exists []. repeat split; reflexivity.
    - destruct l as [la|lb]; cbn in *.
      + destruct (stepA a la) as [[a1 o]|] eqn:E; [|discriminate].
        destruct (runA a1 (labelsA r)) as [[a2 os2]|] eqn:R; [|discriminate].
        injection HA as <- <-.
        destruct (IH _ _ _ _ _ _ R HB) as [os [P [QA QB]]].
        exists (OPA o :: os). rewrite P. cbn. rewrite QA, QB. repeat split; reflexivity.
      + destruct (stepB b lb) as [[b1 o]|] eqn:E; [|discriminate].
        destruct (runB b1 (labelsB r)) as [[b2 os2]|] eqn:R; [|discriminate].
        injection HB as <- <-.
        destruct (IH _ _ _ _ _ _ HA R) as [os [P [QA QB]]].
        exists (OPB o :: os). rewrite P. cbn. rewrite QA, QB. repeat split; reflexivity.
  Qed.

  Corollary product_lifts (P : SA -> list LA -> SA -> list OA -> Prop) :
    (forall a ls a' os, runA a ls = Some (a', os) -> P a ls a' os) ->
    forall ls a b a' b' os, prun (a, b) ls = Some ((a', b'), os) -> P a (labelsA ls) a' (obsA os).
  Proof.
    intros HP ls a b a' b' os H. apply HP. exact (proj1 (product_projects _ _ _ _ _ _ H)).
  Qed.
End Product.
