(* step_ok: StepOK (Proofs/ConnStep.v) holds of every label of Model/Conn.v; the wake-ups of the coroutines come from
   ConnStep (start_connection) and ConnStep2 (the others). *)
From Coq Require Import NArith ZArith List Bool Lia Relations.
From RecordUpdate Require Import RecordSet.
From Verif Require Import Generated.GenConstants Model.Conn Proofs.ConnMoves Proofs.ConnCore Proofs.ConnSync Proofs.ConnStep Proofs.ConnStep2.
Import ListNotations RecordSetNotations.
Open Scope Z_scope.
Open Scope list_scope.

Ltac same_core E := apply some_pair_fst in E; subst; apply StepOK_core_eq; reflexivity.

Definition with_timers (k : core) (pi po : option Z) : core :=
  mkCore (k_cs k) (k_conn k) (k_hs k) (k_armed k) (k_stops k) (k_ever k) pi po (k_waiters k)
         (k_socket k) (k_helper k) (k_ps k) (k_pf k) (k_pd k) (k_expected k).
Lemma InvK_with_timers k pi po :
  InvK k -> (k_cs k = Closed -> pi = None /\ po = None) -> InvK (with_timers k pi po).
Proof.
  intros (F & J & S & C) Hn. split; [exact F|]. split; [exact J|]. split; [exact S|].
  intro Hc. destruct (C Hc) as (_ & _ & C3). destruct (Hn Hc) as [-> ->]. exact (conj eq_refl (conj eq_refl C3)).
Qed.

Lemma StepOK_trans_same c c1 c' : core_of c1 = core_of c -> StepOK c1 c' -> StepOK c c'.
Proof. intro E. apply StepOK_after, R_eq. symmetry. exact E. Qed.

Lemma hs_not_closed c : Inv c -> handshake_complete c = true -> cs c <> Closed.
Proof. intros ([_ F2] & _) Hh Hc. cbn [core_of k_hs k_cs] in F2. rewrite Hc in F2. congruence. Qed.

(* start_connection / finish_connection accepted: the phase's first program point fits the state it was called in *)
Lemma set_pcs_ok c c' ps pf :
  core_of c' = with_pcs (core_of c) ps pf (pc (t_disc c)) -> cs c <> Closed ->
  (ps = pc (t_start c) \/ ps = PS_Resolve /\ cs c = Init) -> (pf = pc (t_finish c) \/ pf = PF_Create /\ cs c = SockOpen) -> StepOK c c'.
Proof.
  intros E Hn Hs Hf H. split; [|left; exact (f_equal k_cs E)]. pose proof H as (_ & [J1 J2] & _). unfold Inv. rewrite E.
  apply InvK_with_pcs; [exact H| | |intro Hc; contradiction].
  - destruct Hs as [->|[-> Hs]]; [exact J1|left; exact Hs].
  - destruct Hf as [->|[-> Hf]]; [exact J2|left; exact Hf].
Qed.

Lemma step_ok c l c' o : step c l = Some (c', o) -> StepOK c c'.
Proof.
  destruct l; cbn [step]; intro E.
  - (* LStart *)
    destruct (cs c) eqn:Ecs; try (same_core E).
    destruct (pc (t_start c)) eqn:Ep; try discriminate.
    apply some_pair_fst in E; subst c'. apply (set_pcs_ok c _ PS_Resolve (pc (t_finish c))); [reflexivity|congruence|auto|auto].
  - (* LFinish *)
    destruct (cs c) eqn:Ecs; try (same_core E).
    destruct (pc (t_finish c)) eqn:Ep; try discriminate.
    apply some_pair_fst in E; subst c'. apply (set_pcs_ok c _ (pc (t_start c)) PF_Create); [reflexivity|congruence|auto|auto].
  - (* LDisconnect *)
    destruct (pc (t_disc c)) eqn:Ep; try discriminate.
    destruct (finish_fut c) eqn:Ef; apply some_pair_fst in E; subst c';
      [ | (* FPending: the connect phase is under way, disconnect() waits for it *)
          set (c2 := c <| disc_timer := Some (now c + DISCONNECT_CONNECT_TIMEOUT) |> <| disc_wait_done := false |>);
          exact (R_then_set_pd c c2 ((t_disc c) <| pc := PD_Wait |>) (R_refl _)) | ].
    (* FNone, FDone: no connect phase to wait for *)
    all: set (cp := c <| t_disc := (t_disc c) <| pc := PD_Wait |> |>); intro H;
         exact (disconnect_after_wait_ok cp cp (R_refl _) (proj1 (R_then_set_pd c c ((t_disc c) <| pc := PD_Wait |>) (R_refl _) H))).
  - (* LForce *)
    set (c1 := c <| expected_disconnect := true |>) in *.
    assert (HR1 : R (core_of c) (core_of c1)) by (apply R_mv, (MvExpected (core_of c))).
    assert (HR2 : R (core_of c) (core_of (fst (fst (if handshake_complete c1 then send_messages c1 [T_DISC_REQ] else (c1, [], None)))))).
    { destruct (handshake_complete c1); [eapply R_trans; [exact HR1|apply R_send_messages]|exact HR1]. }
    destruct (if handshake_complete c1 then send_messages c1 [T_DISC_REQ] else (c1, [], None)) as [[c2 o2] ex]. cbn [fst] in HR2.
    (* the request was sent, or failed with an error of the library: _cleanup; any other error is raised to the caller *)
    assert (CL : forall r, (let '(c3, o3) := cleanup c2 in Some (c3, o2 ++ o3)) = Some r -> StepOK c (fst r)).
    { intros r Q. pose proof (R_cleanup c2) as HR3. destruct (cleanup c2) as [c3 o3]. apply some_inj in Q. subst r.
      apply StepOK_R. eapply R_trans; eassumption. }
    destruct ex as [[]|]; try exact (CL _ E); apply some_pair_fst in E; subst c'; apply StepOK_R; exact HR2.
  - (* LCallStart *)
    set (c0 := c <| call_tasks := call_tasks c ++ [(next_cid c, task0 <| pc := PC_Wait (next_cid c) |>)] |>) in *.
    match type of E with context [call_begin c0 ?a ?b ?d ?e ?f ?g] =>
      pose proof (R_call_begin c0 a b d e f g) as HR; destruct (call_begin c0 a b d e f g) as [[[c1 o1] ex] cid'] end.
    cbn [fst] in HR. change (core_of c0) with (core_of c) in HR.
    destruct ex.
    + match type of E with context [finish_task ?x ?t ?r] => pose proof (R_then_finish c x t r) as K; destruct (finish_task x t r) as [c3 o3] end.
      apply some_pair_fst in E; subst c'; cbn [fst] in *. apply K; [discriminate|exact HR].
    + apply some_pair_fst in E; subst c'; cbn [fst]. apply StepOK_R. exact HR.
  - (* LSend *)
    pose proof (R_send_messages c tys) as HR. destruct (send_messages c tys) as [[c1 o1] ex]. cbn [fst] in HR.
    apply some_pair_fst in E; subst c'; cbn [fst]. apply StepOK_R. exact HR.
  - (* LCancel *)
    destruct (task_running (get_task c t)); [|same_core E].
    apply some_pair_fst in E; subst c'; cbn [fst]. apply StepOK_core_eq. rewrite core_cancel_task.
    apply core_set_task_same. reflexivity.
  - (* LSub *) apply some_pair_fst in E; subst c'; cbn [fst]. apply StepOK_core_eq. apply core_add_handler.
  - (* LUnsub *) same_core E.
  - (* LResolveDone *) repeat dmh E; try discriminate; same_core E.
  - (* LTcpDone *) repeat dmh E; try discriminate; same_core E.
  - (* LMade *) repeat dmh E; try discriminate; same_core E.
  - (* LMadeWaiter *) repeat dmh E; try discriminate; same_core E.
  - (* LHelperReady *)
    destruct (ready c); try discriminate. destruct (made c); try discriminate. destruct (transport c) eqn:Et; try discriminate.
    destruct r as [e|]; [|same_core E].
    pose proof (R_helper_error c e) as HR. destruct (helper_error c e) as [c1 o1]. cbn [fst] in HR.
    destruct (transport c1); apply some_pair_fst in E; subst c'; cbn [fst]; apply StepOK_R; exact HR.
  - (* LData *)
    destruct (transport c); try discriminate. destruct (made c); try discriminate.
    pose proof (R_data_loop items c) as HR. destruct (data_loop c items) as [[c1 o1] ex]. cbn [fst] in HR.
    destruct ex; [destruct (transport c1)|]; apply some_pair_fst in E; subst c'; cbn [fst]; apply StepOK_R; exact HR.
  - (* LEof *)
    destruct (transport c); try discriminate. destruct (made c); try discriminate.
    pose proof (R_helper_error c (Lib LSocketClosed)) as HR. destruct (helper_error c (Lib LSocketClosed)) as [c1 o1]. cbn [fst] in HR.
    destruct (transport c1); apply some_pair_fst in E; subst c'; cbn [fst]; apply StepOK_R; exact HR.
  - (* LLost *) repeat dmh E; try discriminate; same_core E.
  - (* LWriteFails *) same_core E.
  - (* LAdvance *) repeat dmh E; try discriminate; same_core E.
  - (* LWake *)
    destruct t; [eapply wake_start_ok|eapply wake_finish_ok|eapply wake_disc_ok|eapply wake_call_ok]; exact E.
  - (* LIntr *)
    destruct is_start.
    + destruct (start_fut c); try discriminate. destruct (intr_start c); try discriminate; [|same_core E].
      apply some_pair_fst in E; subst c'; cbn [fst]. apply StepOK_core_eq. rewrite core_cancel_task. reflexivity.
    + destruct (finish_fut c); try discriminate. destruct (intr_finish c); try discriminate; [|same_core E].
      apply some_pair_fst in E; subst c'; cbn [fst]. apply StepOK_core_eq. rewrite core_cancel_task. reflexivity.
  - (* LDiscWaitDone *) repeat dmh E; try discriminate; same_core E.
  - (* LConnLostCb *)
    destruct (transport c) as [| |e|]; try discriminate.
    set (c1 := c <| transport := TLost |>) in *. destruct (made c1); [|same_core E].
    match type of E with context [helper_error c1 ?x] => pose proof (R_helper_error c1 x) as HR end.
    apply some_pair_fst in E; subst c'. apply StepOK_R. exact HR.
  - (* LTimer *)
    destruct k.
    + (* TkPing *)
      destruct (due (ping_timer c) c) eqn:Edue; [|discriminate].
      set (c0 := c <| ping_timer := None |>) in *. intro H.
      (* the keep-alive is rescheduled on a connection that is not closed *)
      assert (SK : forall y pi po, cs c <> Closed -> core_of y = with_timers (core_of c) pi po -> Inv y /\ trans_ok (cs c) (cs y)).
      { intros y pi po Hn Ey. split; [|left; exact (f_equal k_cs Ey)].
        unfold Inv. rewrite Ey. apply InvK_with_timers; [exact H|]. intro Hc. contradiction. }
      destruct (send_pending_ping c0) eqn:Epp.
      * pose proof (send_messages_spec c0 [T_PING_REQ]) as HS. destruct (send_messages c0 [T_PING_REQ]) as [[c1 o1] ex].
        destruct HS as [HR HN]. destruct ex.
        -- apply some_pair_fst in E; subst c'. apply (StepOK_R c0 c1 HR).
           unfold Inv. change (core_of c0) with (with_timers (core_of c) None (k_pong (core_of c))). apply InvK_with_timers; [exact H|].
           intro Hc. destruct H as (_ & _ & _ & C). split; [reflexivity|exact (proj1 (proj2 (C Hc)))].
        -- destruct (HN eq_refl) as [-> Hh]. pose proof (hs_not_closed c H Hh) as Hn.
           destruct (pong_timer c0); apply some_pair_fst in E; subst c'; cbn [fst]; (eapply SK; [exact Hn|reflexivity]).
      * apply some_pair_fst in E; subst c'. cbn [fst]. eapply SK; [|reflexivity].
        intro Hc. destruct H as (_ & _ & _ & C). destruct (C Hc) as (C1 & _). cbn [core_of k_ping] in C1.
        unfold due in Edue. rewrite C1 in Edue. discriminate.
    + (* TkPong *)
      destruct (due (pong_timer c) c); [|discriminate].
      pose proof (R_report_fatal c (Lib LPingFailed)) as HR. apply some_pair_fst in E; subst c'. apply StepOK_R. exact HR.
    + (* TkHandshake *) destruct (due (hs_timer c) c); [|discriminate]. destruct (ready c); same_core E.
    + (* TkConnect: the deadline cancels start_connection *)
      destruct (due (conn_timer c) c); [|discriminate].
      apply some_pair_fst in E; subst c'; cbn [fst]. apply StepOK_core_eq. rewrite core_cancel_task. reflexivity.
    + (* TkCall *) destruct (get_call c cid) as [kk|]; [|discriminate]. destruct (due (c_timer kk) c); [|discriminate]. same_core E.
    + (* TkDiscWait *) destruct (pc (t_disc c)); try discriminate. destruct (due (disc_timer c) c); [|discriminate]. same_core E.
Qed.
