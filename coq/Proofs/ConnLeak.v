(* For C11: however a request/response operation ends, it leaves no handler, no waiter and no timer behind - over all runs.
   Three relations between a state and a later one.  P holds of every move of Proofs/ConnMoves.v except the registration of a
   call, the id used up by a call that could not be sent, and the clock; Q, which P implies, holds of every move; R is what
   every move of a label does from a state that satisfies OT.  OT is the invariant that a call's handlers sit only under the
   types of that call, which is what makes the finally block of send_messages_await_response_complex remove all of them. *)
From Coq Require Import NArith ZArith List Bool Lia PeanoNat.
From RecordUpdate Require Import RecordSet.
From Verif Require Import Generated.GenConstants Model.Conn Proofs.ConnMoves Proofs.ConnCalls Proofs.ConnErrors Proofs.ConnReason Proofs.ConnOutcome Proofs.ConnCancel Proofs.ListFacts.
Import ListNotations RecordSetNotations.
Open Scope Z_scope.
Open Scope list_scope.

(* what a call can leave behind *)
Definition res (c : conn) (cid : nat) : Prop :=
  (exists ty, In (ty, HCall cid) (handlers c)) \/ In cid (waiters c) \/
  (exists k, In k (calls c) /\ c_id k = cid /\ c_timer k <> None).

(* trel: a call record keeps its id, its types, the time it was sent and its time-out; its timer is kept or cleared *)
Definition trel (k k' : call) : Prop :=
  c_id k' = c_id k /\ c_types k' = c_types k /\ (c_timer k' = c_timer k \/ c_timer k' = None) /\
  c_sent_at k' = c_sent_at k /\ c_timeout k' = c_timeout k.
Lemma trel_refl k : trel k k.
Proof. unfold trel. auto 6. Qed.
Lemma trel_trans a b c : trel a b -> trel b c -> trel a c.
Proof.
  intros (A1 & A2 & A3 & A4 & A5) (B1 & B2 & B3 & B4 & B5). split; [congruence|]. split; [congruence|]. split; [|split; congruence].
  destruct B3 as [B3|B3]; [|right; exact B3]. destruct A3 as [A3|A3]; [left|right]; congruence.
Qed.
Lemma trel_id k k' : trel k k' -> c_id k' = c_id k.
Proof. intro H. apply H. Qed.

(* P: the counter of ids and the clock stand, the call table keeps its entries up to trel, handlers of calls and waiters only
   disappear *)
Record P (c c' : conn) : Prop := {
  p_n : next_cid c' = next_cid c;
  p_c : Forall2 trel (calls c) (calls c');
  p_h : forall ty cid, In (ty, HCall cid) (handlers c') -> In (ty, HCall cid) (handlers c);
  p_w : forall w, In w (waiters c') -> In w (waiters c);
  p_now : now c' = now c }.

Lemma P_refl c : P c c.
Proof. constructor; auto. apply F2_refl, trel_refl. Qed.
Lemma P_trans a b c : P a b -> P b c -> P a c.
Proof.
  intros [A1 A2 A3 A4 A5] [B1 B2 B3 B4 B5]. constructor; [congruence|exact (F2_trans trel trel_trans _ _ _ A2 B2)|auto|auto|congruence].
Qed.

(* the part of the state that P looks at; the handler table only through its call entries *)
Definition is_hcall (p : N * hid) : bool := match snd p with HCall _ => true | _ => false end.
Definition pv (c : conn) := (next_cid c, calls c, filter is_hcall (handlers c), waiters c, now c).
Lemma in_hcall ty cid l : In (ty, HCall cid) l <-> In (ty, HCall cid) (filter is_hcall l).
Proof. rewrite filter_In. cbn. tauto. Qed.
Lemma P_pv c c' : pv c' = pv c -> P c c'.
Proof.
  unfold pv. intro E. injection E as E1 E2 E3 E4 E5. constructor; [exact E1|rewrite E2; apply F2_refl, trel_refl| |rewrite E4; auto|exact E5].
  intros ty cid H. apply (proj2 (in_hcall ty cid (handlers c))). rewrite <- E3. apply (proj1 (in_hcall ty cid (handlers c'))). exact H.
Qed.

Lemma P_upd_call c cid g : (forall k, trel k (g k)) -> P c (upd_call c cid g).
Proof.
  intro H. constructor; cbn; auto. exact (F2_upd_call trel trel_refl c cid g H).
Qed.
Lemma P_get_call c c' cid k : P c c' -> get_call c cid = Some k -> exists k', get_call c' cid = Some k' /\ trel k k'.
Proof. intros H. exact (F2_find trel trel_id _ _ cid k (p_c _ _ H)). Qed.
Lemma P_timer c c' k' : P c c' -> In k' (calls c') -> c_timer k' <> None -> exists k, In k (calls c) /\ c_id k = c_id k' /\ c_timer k <> None.
Proof.
  intros H I T. destruct (F2_in trel _ _ _ (p_c _ _ H) I) as (k & I0 & E1 & _ & E3 & _). exists k. repeat split; [exact I0|congruence|].
  destruct E3 as [E3|E3]; congruence.
Qed.

Lemma trel_fail_waiter e k : trel k (fail_waiter e k).
Proof. unfold fail_waiter. destruct (c_fut k); unfold trel; cbn; auto 6. Qed.

Lemma P_close c o c' : close_atom c o c' -> P c c'.
Proof.
  destruct 1; try (apply P_pv; reflexivity).
  (* ACloseState: the calls of the waiters fail, keeping their timers, and the waiters go *)
  constructor; cbn; [reflexivity| |auto|intros w []|reflexivity].
  apply F2_map. intro k. destruct (existsb _ _); [apply trel_fail_waiter|apply trel_refl].
Qed.
Lemma P_cpath c o c' : cpath c o c' -> P c c'.
Proof. apply path_rel; [exact P_refl|exact P_trans|exact P_close]. Qed.

Lemma P_send_messages c tys : P c (fst (fst (send_messages c tys))).
Proof. exact (P_cpath _ _ _ (path_send_messages c tys)). Qed.

Lemma filter_app_one {A} (f : A -> bool) l x : f x = false -> filter f (l ++ [x]) = filter f l.
Proof. intro H. rewrite filter_app. cbn. rewrite H. apply app_nil_r. Qed.
Lemma pv_add_other c ty h : (forall x, h <> HCall x) -> pv (add_handler c ty h) = pv c.
Proof.
  intro Hh. unfold add_handler. destruct (existsb _ _); [reflexivity|]. unfold pv. cbn.
  rewrite filter_app_one; [reflexivity|]. unfold is_hcall. cbn. destruct h; try reflexivity. exfalso. eapply Hh. reflexivity.
Qed.
Lemma P_remove c ty h : P c (remove_handler c ty h).
Proof. constructor; cbn; auto; [apply F2_refl, trel_refl|]. intros ty' cid H. apply filter_In in H. tauto. Qed.
Lemma P_waiters c f : P c (c <| waiters := filter f (waiters c) |>).
Proof. constructor; cbn; auto; [apply F2_refl, trel_refl|]. intros w Hw. apply filter_In in Hw. tauto. Qed.
Lemma P_action c a : P c (run_action c a).
Proof. destruct a; cbn [run_action]; [apply P_pv, pv_add_other; discriminate|apply P_remove]. Qed.

Lemma trel_recv k m : trel k (recv k m).
Proof. unfold recv, trel. destruct (eval_pred (c_stop k) m), (eval_pred (c_append k) m); cbn; auto 6. Qed.

Lemma P_data c o c' : data_atom c o c' -> uniq c -> P c c'.
Proof.
  destruct 1 as [c o c' H| |c cid k m G F|c a| |]; intro U; try (apply P_pv; reflexivity).
  - (* DClose *) exact (P_close _ _ _ H).
  - (* DCallMsg: ids being unique, the record of the call alone is replaced *)
    constructor; cbn; auto. exact (F2_upd_const trel trel_refl (calls c) cid k _ U G (trel_recv k m)).
  - (* DAction *) apply P_action.
Qed.

Lemma P_fold_remove l h : forall c, P c (fold_left (fun a ty => remove_handler a ty h) l c).
Proof. induction l as [|a l IHl]; intro c; cbn [fold_left]; [apply P_refl|]. eapply P_trans; [apply P_remove|apply IHl]. Qed.
Lemma P_call_finally c cid : P c (call_finally c cid).
Proof.
  unfold call_finally. destruct (get_call c cid); [|apply P_refl]. cbv zeta.
  eapply P_trans; [|apply P_waiters]. eapply P_trans; [|apply P_fold_remove].
  apply P_upd_call. intro k. unfold trel. cbn. auto 6.
Qed.

(* Q: a handler, a waiter or an armed timer that a call with an id below the counter of c has in c' it had in c *)
Record Q (c c' : conn) : Prop := {
  q_n : (next_cid c <= next_cid c')%nat;
  q_h : forall ty cid, (cid < next_cid c)%nat -> In (ty, HCall cid) (handlers c') -> In (ty, HCall cid) (handlers c);
  q_w : forall cid, (cid < next_cid c)%nat -> In cid (waiters c') -> In cid (waiters c);
  q_t : forall k', In k' (calls c') -> (c_id k' < next_cid c)%nat -> c_timer k' <> None ->
        exists k, In k (calls c) /\ c_id k = c_id k' /\ c_timer k <> None }.

Lemma Q_refl c : Q c c.
Proof. constructor; auto. intros k' H _ T. exists k'. auto. Qed.
Lemma Q_trans a b c : Q a b -> Q b c -> Q a c.
Proof.
  intros [A1 A2 A3 A4] [B1 B2 B3 B4]. constructor.
  - lia.
  - intros ty cid L H. apply A2; [exact L|]. apply B2; [lia|exact H].
  - intros cid L H. apply A3; [exact L|]. apply B3; [lia|exact H].
  - intros k' H L T. destruct (B4 k' H ltac:(lia) T) as (k1 & I1 & E1 & T1).
    destruct (A4 k1 I1 ltac:(lia) T1) as (k0 & I0 & E0 & T0). exists k0. repeat split; [exact I0|congruence|exact T0].
Qed.
Lemma P_Q c c' : P c c' -> Q c c'.
Proof.
  intro H. constructor; [rewrite (p_n _ _ H); lia|intros ty cid _; apply (p_h _ _ H)|intros cid _; apply (p_w _ _ H)|].
  intros k' I _. exact (P_timer _ _ k' H I).
Qed.
Lemma Q_res c c' cid : Q c c' -> (cid < next_cid c)%nat -> res c' cid -> res c cid.
Proof.
  intros [A1 A2 A3 A4] L [(ty & H)|[H|(k' & H & E & T)]].
  - left. exists ty. apply A2; assumption.
  - right. left. apply A3; assumption.
  - right. right. subst cid. destruct (A4 k' H L T) as (k & I & E & T'). exists k. auto.
Qed.
Lemma P_res c c' cid : P c c' -> res c' cid -> res c cid.
Proof.
  intros HP [(ty & H)|[H|(k' & H & E & T)]].
  - left. exists ty. apply (p_h _ _ HP), H.
  - right. left. apply (p_w _ _ HP), H.
  - right. right. destruct (P_timer _ _ k' HP H T) as (k & I & E1 & T1). exists k. repeat split; [exact I|congruence|exact T1].
Qed.

(* OT: a handler of a call stands under a type of that call, which exists; ids are unique and, like the waiters, below the counter *)
Record OT (c : conn) : Prop := {
  o_h : forall ty cid, In (ty, HCall cid) (handlers c) -> exists k, get_call c cid = Some k /\ In ty (c_types k);
  o_lt : Forall (fun k => (c_id k < next_cid c)%nat) (calls c);
  o_u : uniq c;
  o_w : forall w, In w (waiters c) -> (w < next_cid c)%nat }.

Lemma P_OT c c' : P c c' -> OT c -> OT c'.
Proof.
  intros HP [B1 B2 B3 B4]. pose proof HP as [A1 A2 A3 A4 _]. constructor.
  - intros ty cid H. destruct (B1 ty cid (A3 _ _ H)) as (k & G & T).
    destruct (P_get_call _ _ _ _ HP G) as (k' & G' & _ & E & _). exists k'. split; [exact G'|]. rewrite E. exact T.
  - rewrite A1. eapply Forall2_Forall; [|exact A2|exact B2]. intros x y (E & _) L. cbn in *. rewrite E. exact L.
  - exact (uniq_F2 trel _ _ trel_id A2 B3).
  - intros w H. rewrite A1. apply B4, A4, H.
Qed.

Lemma call_id_lt c k : OT c -> In k (calls c) -> (c_id k < next_cid c)%nat.
Proof. intro HO. exact (proj1 (Forall_forall _ _) (o_lt _ HO) k). Qed.
Lemma get_call_lt c cid k : OT c -> get_call c cid = Some k -> (cid < next_cid c)%nat.
Proof. intros HO G. rewrite <- (get_call_id c cid k G). apply find_some in G. exact (call_id_lt c k HO (proj1 G)). Qed.
Lemma res_lt c cid : OT c -> res c cid -> (cid < next_cid c)%nat.
Proof.
  intros HO [(ty & H)|[H|(k & H & E & _)]].
  - destruct (o_h _ HO ty cid H) as (k & G & _). exact (get_call_lt _ _ _ HO G).
  - exact (o_w _ HO _ H).
  - rewrite <- E. exact (call_id_lt c k HO H).
Qed.

(* cinv: an armed timer stands at sent + time-out.  srel: a record keeps the time it was sent and its time-out, its timer is
   kept or cleared.  Kc: every record of c' comes from one of c by srel, or satisfies cinv and was sent no later than the clock
   of c'. *)
Definition cinv (k : call) : Prop := forall d, c_timer k = Some d -> d = c_sent_at k + c_timeout k.
Definition srel (k k' : call) : Prop :=
  c_sent_at k' = c_sent_at k /\ c_timeout k' = c_timeout k /\ (c_timer k' = c_timer k \/ c_timer k' = None).
Definition Kc (c c' : conn) : Prop :=
  forall k', In k' (calls c') -> (exists k, In k (calls c) /\ srel k k') \/ (cinv k' /\ c_sent_at k' <= now c').
Lemma srel_refl k : srel k k.
Proof. unfold srel. auto. Qed.
Lemma Kc_refl c : Kc c c.
Proof. intros k' H. left. exists k'. split; [exact H|apply srel_refl]. Qed.
Lemma cinv_srel k k' : srel k k' -> cinv k -> cinv k'.
Proof. intros (A1 & A2 & A3) H d Hd. rewrite A1, A2. apply H. destruct A3 as [A3|A3]; congruence. Qed.
Lemma cinv_srel_le k k' n n' : srel k k' -> cinv k /\ c_sent_at k <= n -> n <= n' -> cinv k' /\ c_sent_at k' <= n'.
Proof. intros S [H L] N. split; [exact (cinv_srel k k' S H)|]. destruct S as (S1 & _). rewrite S1. lia. Qed.
Lemma Kc_trans a b c : Kc a b -> Kc b c -> now b <= now c -> Kc a c.
Proof.
  intros HA HB N k'' H. destruct (HB k'' H) as [(k' & H' & S')|F]; [|right; exact F].
  destruct (HA k' H') as [(k & H0 & S0)|[F1 F2]].
  - left. exists k. split; [exact H0|]. destruct S0 as (A1 & A2 & A3). destruct S' as (B1 & B2 & B3).
    split; [congruence|]. split; [congruence|]. destruct B3 as [B3|B3]; [|right; exact B3]. destruct A3 as [A3|A3]; [left|right]; congruence.
  - right. exact (cinv_srel_le k' k'' _ _ S' (conj F1 F2) N).
Qed.
Lemma P_Kc c c' : P c c' -> Kc c c'.
Proof.
  intros HP k' H. left. destruct (F2_in trel _ _ _ (p_c _ _ HP) H) as (k & I & _ & _ & T & S1 & S2). exists k. split; [exact I|].
  split; [exact S1|]. split; [exact S2|exact T].
Qed.

(* R: Q and Kc, the clock no lower, and OT is kept *)
Record R (c c' : conn) : Prop := {
  r_q : Q c c';
  r_o : OT c -> OT c';
  r_k : Kc c c';
  r_n : now c <= now c' }.
Lemma R_refl c : R c c.
Proof. constructor; [apply Q_refl|auto|apply Kc_refl|lia]. Qed.
Lemma R_trans a b c : R a b -> R b c -> R a c.
Proof.
  intros [A1 A2 A3 A4] [B1 B2 B3 B4]. constructor; [eapply Q_trans; eassumption|auto|eapply Kc_trans; eassumption|lia].
Qed.
Lemma P_R c c' : P c c' -> R c c'.
Proof. intro H. constructor; [apply P_Q; exact H|apply P_OT; exact H|apply P_Kc; exact H|rewrite (p_now _ _ H); lia]. Qed.
Lemma R_same c c' : calls c' = calls c -> handlers c' = handlers c -> waiters c' = waiters c ->
  (next_cid c <= next_cid c')%nat -> now c <= now c' -> R c c'.
Proof.
  intros E1 E2 E3 N T. constructor; [constructor| | |exact T].
  - exact N.
  - intros ty cid _. rewrite E2. auto.
  - intros cid _. rewrite E3. auto.
  - intros k' H _ X. rewrite E1 in H. exists k'. auto.
  - intros [B1 B2 B3 B4]. constructor.
    + intros ty cid H. rewrite E2 in H. unfold get_call. rewrite E1. exact (B1 ty cid H).
    + rewrite E1. eapply Forall_impl; [|exact B2]. cbn. intros; lia.
    + unfold uniq. rewrite E1. exact B3.
    + intros w H. rewrite E3 in H. specialize (B4 w H). lia.
  - intros k' H. rewrite E1 in H. left. exists k'. split; [exact H|apply srel_refl].
Qed.

Lemma in_fold_add l h : forall c p, In p (handlers (fold_left (fun a ty => add_handler a ty h) l c)) ->
  In p (handlers c) \/ (snd p = h /\ In (fst p) l).
Proof.
  induction l as [|ty l IHl]; intros c p H; cbn [fold_left] in H; [left; exact H|].
  destruct (IHl _ _ H) as [H1|[H1 H2]].
  - unfold add_handler in H1. destruct (existsb _ _); [left; exact H1|]. cbn in H1. apply in_app_or in H1.
    destruct H1 as [H1|[<-|[]]]; [left; exact H1|right; cbn; auto].
  - right. split; [exact H1|right; exact H2].
Qed.
(* for the table of calls see ConnMoves.calls_fold_add *)
Lemma fold_add_keeps l h : forall c, next_cid (fold_left (fun a ty => add_handler a ty h) l c) = next_cid c /\
  waiters (fold_left (fun a ty => add_handler a ty h) l c) = waiters c /\
  now (fold_left (fun a ty => add_handler a ty h) l c) = now c.
Proof.
  intro c. repeat split; [apply (fold_left_view next_cid)|apply (fold_left_view waiters)|apply (fold_left_view now)];
    intros a ty; unfold add_handler; destruct (existsb _ _); reflexivity.
Qed.

Lemma find_none_lt (l : list call) n : Forall (fun k => (c_id k < n)%nat) l -> find (fun k => Nat.eqb (c_id k) n) l = None.
Proof.
  induction 1 as [|x l Hx _ IH]; cbn; [reflexivity|].
  destruct (Nat.eqb (c_id x) n) eqn:E; [apply Nat.eqb_eq in E; lia|exact IH].
Qed.

Lemma R_register c1 owner types ap st tmo : R c1 (register_call c1 owner types ap st tmo).
Proof.
  unfold register_call. match goal with |- R c1 (fold_left ?f types ?x) => set (c2 := x); set (c3 := fold_left f types c2) end.
  pose proof (calls_fold_add types (HCall (next_cid c1)) c2) as K1.
  destruct (fold_add_keeps types (HCall (next_cid c1)) c2) as (K2 & K3 & K4). fold c3 in K1, K2, K3, K4. cbn in K1, K2, K3, K4.
  constructor.
  - (* Q: the new id is not below the counter *) constructor.
    + rewrite K2. lia.
    + intros ty cid L H. destruct (in_fold_add _ _ _ _ H) as [H1|[H1 _]]; [exact H1|]. cbn in H1. injection H1 as H1. lia.
    + intros cid L H. rewrite K3 in H. apply in_app_or in H. destruct H as [H|[H|[]]]; [exact H|lia].
    + intros k' H L T. rewrite K1 in H. apply in_app_or in H. destruct H as [H|[H|[]]].
      * exists k'. auto.
      * subst k'. cbn in L. lia.
  - (* OT is kept *) intros [B1 B2 B3 B4]. constructor.
    + intros ty cid H. unfold get_call. rewrite K1.
      destruct (in_fold_add _ _ _ _ H) as [H1|[H1 H2]].
      * destruct (B1 ty cid H1) as (k & G & T). exists k. split; [|exact T]. apply find_app_some. exact G.
      * cbn in H1, H2. injection H1 as H1. subst cid. rewrite find_app_none by (apply find_none_lt; exact B2).
        cbn. rewrite Nat.eqb_refl. eexists. split; [reflexivity|exact H2].
    + rewrite K1, K2. apply Forall_app. split.
      * eapply Forall_impl; [|exact B2]. cbn. intros; lia.
      * constructor; [cbn; lia|constructor].
    + unfold uniq. rewrite K1, map_app. cbn.
      apply NoDup_snoc; [exact B3|]. intro H. apply in_map_iff in H. destruct H as (k & E & I).
      rewrite Forall_forall in B2. specialize (B2 k I). cbn in B2. lia.
    + intros w H. rewrite K3 in H. rewrite K2. apply in_app_or in H. destruct H as [H|[<-|[]]]; [specialize (B4 w H); lia|lia].
  - (* Kc: the new record has its timer at now + time-out *)
    intros k' H. rewrite K1 in H. apply in_app_or in H. destruct H as [H|[H|[]]].
    + left. exists k'. split; [exact H|apply srel_refl].
    + right. subst k'. split; [intros d Hd; cbn in *; congruence|cbn; rewrite K4; lia].
  - (* the clock *) rewrite K4. lia.
Qed.
Lemma call_begin_exc_P c owner send types ap st tmo e :
  snd (fst (call_begin c owner send types ap st tmo)) = Some e -> P c (fst (fst (fst (call_begin c owner send types ap st tmo)))).
Proof.
  unfold call_begin.
  pose proof (P_send_messages c send) as HP. destruct (send_messages c send) as [[c1 o] ex]. cbn [fst] in HP.
  destruct ex; cbn [fst snd]; [intros _; exact HP|discriminate].
Qed.

Lemma pv_set_task c t k : pv (set_task c t k) = pv c.
Proof. destruct t; reflexivity. Qed.
Lemma pv_internal_handlers c : pv (internal_handlers c) = pv c.
Proof. unfold internal_handlers. rewrite !pv_add_other; try discriminate. reflexivity. Qed.

Lemma R_step l c o c' : step_atom l c o c' -> OT c -> R c c'.
Proof.
  destruct 1; intro HO; try (apply P_R, P_pv; reflexivity);
    lazymatch goal with
    | H : close_atom _ _ _ |- _ => exact (P_R _ _ (P_close _ _ _ H))
    | H : data_atom _ _ _ |- _ => (* dispatch: the ids of the calls are unique *) exact (P_R _ _ (P_data _ _ _ H (o_u _ HO)))
    | |- R _ (register_call _ _ _ _ _ _) => apply R_register
    | |- R _ (call_finally _ _) => apply P_R, P_call_finally
    | |- R _ (set_task _ _ _) => (* STask, STaskDone, SUserCancel *) apply P_R, P_pv, pv_set_task
    | |- R _ (remove_handler _ _ _) => apply P_R, P_remove
    | _ => idtac
    end.
  - (* SNextCid, a call could not be sent: its id is used up *) apply R_same; try reflexivity. cbn. lia.
  - (* SCallTimeout *)
    apply P_R, P_upd_call. intro x. unfold trel. destruct (c_fut x); cbn; auto 6.
  - (* SCallCancel: its future alone *) apply P_R, P_upd_call. intro x. unfold trel. cbn. auto 6.
  - (* SHsDone: the handlers registered are the internal ones *) apply P_R, P_pv. rewrite pv_internal_handlers. reflexivity.
  - (* SSub: a subscription is no call's handler *) apply P_R, P_pv, pv_add_other. discriminate.
  - (* SAdvance *) apply R_same; try reflexivity. assumption.
Qed.
Lemma R_spath l c o c' : spath l c o c' -> OT c -> R c c'.
Proof.
  apply (path_rel_under _ OT R R_refl R_trans); [|exact (R_step l)]. intros x ox x' A HO. exact (r_o _ _ (R_step l _ _ _ A HO) HO).
Qed.

Theorem step_R c l c' o : OT c -> step c l = Some (c', o) -> R c c'.
Proof. intros HO E. exact (R_spath l c o c' (step_path _ _ _ _ E) HO). Qed.

Lemma calls_fold_remove l h : forall c, calls (fold_left (fun a ty => remove_handler a ty h) l c) = calls c.
Proof. apply (fold_left_view calls). reflexivity. Qed.

Lemma call_finally_clean_all c cid k : OT c -> get_call c cid = Some k -> ~ res (call_finally c cid) cid.
Proof.
  intros [B1 _ _ _] G. unfold call_finally. rewrite G.
  intros [(ty & H)|[H|(k' & H & E & T)]].
  - cbn [handlers set] in H. rewrite handlers_remove_fold in H. apply filter_In in H. destruct H as [H F].
    cbn [handlers upd_call set] in H. destruct (B1 ty cid H) as (k0 & G0 & T0). rewrite G in G0. apply some_inj in G0. subst k0.
    cbn [fst snd] in F. rewrite hid_eqb_refl, andb_true_r in F.
    rewrite (proj2 (existsb_eqb_In N.eqb N.eqb_eq ty (c_types k)) T0) in F. discriminate.
  - cbn [waiters set] in H. apply filter_In in H. destruct H as [_ F]. rewrite Nat.eqb_refl in F. discriminate.
  - cbn [calls set] in H. rewrite calls_fold_remove in H. cbn [calls upd_call set] in H.
    apply in_map_iff in H. destruct H as (x & Ex & _). apply T. subst k'.
    destruct (Nat.eqb (c_id x) cid) eqn:Q0; [reflexivity|]. apply Nat.eqb_neq in Q0. contradiction.
Qed.

(* "Nothing of call cid is registered" is established by one move in the middle of a label, the finally block, and the
   state does not record that it has run; so the three wake-ups that end a call are followed as the model composes them up to
   that move: the cancel flag is taken (c1), the finally block runs, and the rest of the label is a path from there *)
Lemma pv_take_cancel c t : pv (fst (take_cancel c t)) = pv c.
Proof. unfold take_cancel. destruct (must_cancel _); cbn [fst]; [apply pv_set_task|reflexivity]. Qed.
Lemma finally_leaves_nothing l c cid kk c1 o c' : OT c -> get_call c cid = Some kk -> pv c1 = pv c ->
  spath l (call_finally c1 cid) o c' -> ~ res c' cid /\ (cid < next_cid c')%nat.
Proof.
  intros HO G H1 Pt. apply P_pv in H1. destruct (P_get_call _ _ _ _ H1 G) as (k1 & G1 & _).
  pose proof (P_OT _ _ H1 HO) as O1. pose proof (P_call_finally c1 cid) as HF.
  pose proof (R_spath l _ _ _ Pt (P_OT _ _ HF O1)) as [HQ _ _ _].
  assert (L : (cid < next_cid (call_finally c1 cid))%nat) by (rewrite (p_n _ _ HF); exact (get_call_lt _ _ _ O1 G1)).
  split; [|pose proof (q_n _ _ HQ); lia].
  intro Hr. exact (call_finally_clean_all c1 cid k1 O1 G1 (Q_res _ _ _ HQ L Hr)).
Qed.

Lemma wake_finish_clean c r cid : wake_finish c = Some r -> OT c -> pc (t_finish c) = PF_Hello cid ->
  ~ res (fst r) cid /\ (cid < next_cid (fst r))%nat.
Proof.
  unfold wake_finish. cbn [get_task]. intros E HO Hp. rewrite Hp in E.
  destruct (get_call c cid) as [kk|] eqn:Eg; [|discriminate]. destruct (_ || _); [|discriminate].
  pose proof (pv_take_cancel c TFinish) as H1. pose proof (pc_take_cancel c TFinish) as Hp1.
  destruct (take_cancel c TFinish) as [c1 mc]. cbn [fst get_task] in H1, Hp1.
  assert (Hp2 : pc (t_finish (call_finally c1 cid)) = PF_Hello cid) by (rewrite t_finish_call_finally, Hp1; exact Hp).
  apply (finally_leaves_nothing (LWake TFinish) c cid kk c1 (snd r) (fst r) HO Eg H1).
  match type of E with (match ?d with _ => _ end) = _ => destruct d as [|e] end; [destruct (check_hello_login _ _)|];
    apply some_inj in E; subst r; first [exact (path_finish_fail (LWake TFinish) _ _ eq_refl) | exact (path_finish_success (LWake TFinish) _ cid eq_refl Hp2)].
Qed.
Lemma wake_disc_clean c r cid : wake_disc c = Some r -> OT c -> pc (t_disc c) = PD_Resp cid ->
  ~ res (fst r) cid /\ (cid < next_cid (fst r))%nat.
Proof.
  unfold wake_disc. cbn [get_task]. intros E HO Hp. rewrite Hp in E.
  destruct (get_call c cid) as [kk|] eqn:Eg; [|discriminate]. destruct (_ || _); [|discriminate].
  pose proof (pv_take_cancel c TDisc) as H1. destruct (take_cancel c TDisc) as [c1 mc]. cbn [fst] in H1.
  apply (finally_leaves_nothing (LWake TDisc) c cid kk c1 (snd r) (fst r) HO Eg H1).
  pose proof (path_cleanup_finish (LWake TDisc) (call_finally c1 cid) TDisc (fun _ => TOk) (fun y => y) eq_refl (fun y => path_nil y) (fun y => eq_refl) (or_intror eq_refl)) as CF.
  cbn zeta in CF. destruct (cleanup (call_finally c1 cid)) as [c3 o3]. destruct (finish_task c3 TDisc TOk) as [c4 o4]. cbn [fst snd] in CF.
  match type of E with (match ?d with _ => _ end) = _ => destruct d as [|[]] end; apply some_inj in E; subst r;
    first [exact CF | exact (path_finish_task (LWake TDisc) _ _ _ eq_refl I)].
Qed.
Lemma wake_call_clean c cid r : wake_call c cid = Some r -> OT c ->
  (~ res (fst r) cid /\ (cid < next_cid (fst r))%nat) /\ exists x, snd r = [OTaskDone (TCall cid) x].
Proof.
  unfold wake_call. intros E HO.
  destruct (pc (get_task c (TCall cid))); try discriminate.
  destruct (get_call c cid) as [kk|] eqn:Eg; [|discriminate]. destruct (_ || _); [|discriminate].
  pose proof (pv_take_cancel c (TCall cid)) as H1. destruct (take_cancel c (TCall cid)) as [c1 mc]. cbn [fst] in H1.
  apply some_inj in E. split; [|subst r; eexists; reflexivity].
  apply (finally_leaves_nothing (LWake (TCall cid)) c cid kk c1 (snd r) (fst r) HO Eg H1). subst r. exact (path_finish_task (LWake (TCall cid)) _ _ _ eq_refl I).
Qed.

Lemma OT_init n e ka scr : OT (init n e ka scr).
Proof. constructor; cbn; [intros ty cid []|constructor|constructor|intros w []]. Qed.

Lemma run_R ls : forall c c' os, OT c -> run c ls = Some (c', os) -> R c c' /\ OT c'.
Proof.
  intros c c' os HO. apply (run_invariant (fun x => R c x /\ OT x)); [|split; [apply R_refl|exact HO]].
  intros x l x' o [A B] E. pose proof (step_R x l x' o B E) as R1. split; [exact (R_trans _ _ _ A R1)|exact (r_o _ _ R1 B)].
Qed.

Lemma stays_clean c cid ls c' os : OT c -> (cid < next_cid c)%nat -> ~ res c cid -> run c ls = Some (c', os) -> ~ res c' cid.
Proof.
  intros HO L CL E Hr. destruct (run_R ls c c' os HO E) as [[Q1 _ _ _] _]. apply CL. eapply Q_res; eassumption.
Qed.

Lemma step_stays_clean c1 l c2 o cid l2 c3 os3 : OT c1 -> step c1 l = Some (c2, o) -> ~ res c2 cid /\ (cid < next_cid c2)%nat ->
  run c2 l2 = Some (c3, os3) -> ~ res c2 cid /\ ~ res c3 cid.
Proof.
  intros O1 Es [CL L] E2. split; [exact CL|].
  exact (stays_clean c2 cid l2 c3 os3 (r_o _ _ (step_R _ _ _ _ O1 Es) O1) L CL E2).
Qed.

(* a request/response call: the wake-up that ends it (result, time-out, cancellation, connection error alike) leaves no handler,
   no waiter and no timer of that call, and none ever comes back *)
Theorem call_leaves_nothing n e ka scr l1 c1 os1 cid c2 o l2 c3 os3 :
  run (init n e ka scr) l1 = Some (c1, os1) -> step c1 (LWake (TCall cid)) = Some (c2, o) -> run c2 l2 = Some (c3, os3) ->
  (exists r, o = [OTaskDone (TCall cid) r]) /\ ~ res c2 cid /\ ~ res c3 cid.
Proof.
  intros E1 Es E2. destruct (run_R l1 _ _ _ (OT_init n e ka scr) E1) as [_ O1].
  destruct (wake_call_clean c1 cid _ Es O1) as (CL & Hr).
  split; [exact Hr|]. exact (step_stays_clean c1 _ c2 o cid l2 c3 os3 O1 Es CL E2).
Qed.

(* a call that could not even be sent registers nothing *)
Theorem unsent_call_registers_nothing n e ka scr l1 c1 os1 send types ap st tmo c2 o t r l2 c3 os3 :
  run (init n e ka scr) l1 = Some (c1, os1) -> step c1 (LCallStart send types ap st tmo) = Some (c2, o) ->
  In (OTaskDone t r) o -> run c2 l2 = Some (c3, os3) ->
  t = TCall (next_cid c1) /\ ~ res c2 (next_cid c1) /\ ~ res c3 (next_cid c1).
Proof.
  intros E1 Es Hin E2. destruct (run_R l1 _ _ _ (OT_init n e ka scr) E1) as [_ O1].
  pose proof (r_o _ _ (step_R _ _ _ _ O1 Es) O1) as O2. cbn [step] in Es.
  match type of Es with context [call_begin ?x ?a ?b ?d ?ee ?f ?g] =>
    assert (H0 : P c1 x) by (apply P_pv; reflexivity);
    pose proof (call_begin_exc_P x a b d ee f g) as HX; pose proof (no_done_call_begin x a b d ee f g) as ND;
    destruct (call_begin x a b d ee f g) as [[[c1' o1] ex] cid'] end.
  cbn [fst snd] in HX, ND.
  (* the task ends within this step only if the request could not be written *)
  destruct ex as [e0|]; [|apply some_pair_inv in Es; destruct Es as [_ <-]; destruct (ND _ _ Hin)].
  pose proof (P_trans _ _ _ H0 (HX e0 eq_refl)) as H1.
  cbn [finish_task] in Es. apply some_pair_inv in Es. destruct Es as [<- <-].
  apply in_app_or in Hin. destruct Hin as [Hin|[Hin|[]]]; [destruct (ND _ _ Hin)|]. injection Hin as <- _.
  match goal with |- _ /\ ~ res ?x _ /\ _ => assert (CL : ~ res x (next_cid c1)) end.
  { (* the id was free, and neither the counter nor the record of a task is a resource *)
    intro Hr. apply (Nat.lt_irrefl (next_cid c1)), (res_lt c1 _ O1), (P_res _ _ _ H1).
    apply (P_res (c1' <| next_cid := S (next_cid c1) |>)) in Hr; [exact Hr|apply P_pv, pv_set_task]. }
  split; [reflexivity|]. split; [exact CL|]. refine (stays_clean _ _ _ _ _ O2 _ CL E2). cbn. lia.
Qed.

(* the same for the two calls the library makes itself: hello / login inside finish_connection, and disconnect() *)
Theorem hello_call_leaves_nothing n e ka scr l1 c1 os1 cid c2 o l2 c3 os3 :
  run (init n e ka scr) l1 = Some (c1, os1) -> pc (t_finish c1) = PF_Hello cid ->
  step c1 (LWake TFinish) = Some (c2, o) -> run c2 l2 = Some (c3, os3) ->
  ~ res c2 cid /\ ~ res c3 cid.
Proof.
  intros E1 Hpc Es E2. destruct (run_R l1 _ _ _ (OT_init n e ka scr) E1) as [_ O1].
  exact (step_stays_clean c1 _ c2 o cid l2 c3 os3 O1 Es (wake_finish_clean c1 _ cid Es O1 Hpc) E2).
Qed.

Theorem disconnect_call_leaves_nothing n e ka scr l1 c1 os1 cid c2 o l2 c3 os3 :
  run (init n e ka scr) l1 = Some (c1, os1) -> pc (t_disc c1) = PD_Resp cid ->
  step c1 (LWake TDisc) = Some (c2, o) -> run c2 l2 = Some (c3, os3) ->
  ~ res c2 cid /\ ~ res c3 cid.
Proof.
  intros E1 Hpc Es E2. destruct (run_R l1 _ _ _ (OT_init n e ka scr) E1) as [_ O1].
  exact (step_stays_clean c1 _ c2 o cid l2 c3 os3 O1 Es (wake_disc_clean c1 _ cid Es O1 Hpc) E2).
Qed.

(* in every reachable state the handlers of a call sit under the types it asked for and nowhere else *)
Theorem call_handlers_typed n e ka scr ls c os ty cid :
  run (init n e ka scr) ls = Some (c, os) -> In (ty, HCall cid) (handlers c) ->
  exists k, get_call c cid = Some k /\ In ty (c_types k).
Proof. intros E H. destruct (run_R ls _ _ _ (OT_init n e ka scr) E) as [_ O1]. exact (o_h _ O1 ty cid H). Qed.

Definition CB (c : conn) : Prop := Forall (fun k => cinv k /\ c_sent_at k <= now c) (calls c).
Lemma CB_R c c' : R c c' -> CB c -> CB c'.
Proof.
  intros [_ _ K N] H. unfold CB in *. rewrite Forall_forall in *. intros k' I'.
  destruct (K k' I') as [(k & I & S)|F]; [|exact F]. exact (cinv_srel_le k k' _ _ S (H k I) N).
Qed.
Theorem call_timers_exact n e ka scr ls c os k d :
  run (init n e ka scr) ls = Some (c, os) -> In k (calls c) -> c_timer k = Some d ->
  d = c_sent_at k + c_timeout k /\ c_sent_at k <= now c.
Proof.
  intros E I T. destruct (run_R ls _ _ _ (OT_init n e ka scr) E) as [HR _].
  assert (H : CB c) by (eapply CB_R; [exact HR|constructor]).
  unfold CB in H. rewrite Forall_forall in H. destruct (H k I) as [H1 H2]. split; [apply H1; exact T|exact H2].
Qed.
