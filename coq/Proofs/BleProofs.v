(* C16.  The filters of Model/Ble.v (which messages a request takes for its own; the first of them decides), then the
   operations as state machines: every step moves the phase along an edge of one diagram (op_step_moves), from which
   follow that reachable states are well formed and that an operation that reports its ending has finished. *)
From Coq Require Import NArith ZArith List Bool.
From Verif Require Import Generated.GenConstants Model.Ble Proofs.ListFacts.
Import ListNotations.
Open Scope N_scope.

Theorem foreign_messages_irrelevant resp a h pre x post :
  passes resp a h x = false -> handle_op resp a h (pre ++ x :: post) = handle_op resp a h (pre ++ post).
Proof. intro H. unfold handle_op. rewrite !find_app. cbn [find]. rewrite H. reflexivity. Qed.

Lemma passes_own resp a h m : passes resp a h m = true ->
  registered_for resp m = true /\ b_addr m = a /\ (is_conn (b_kind m) = false -> b_handle m = h).
Proof.
  unfold passes, handle_filter. intro H. apply andb_true_iff in H as [Hr Hf]. split; [exact Hr|].
  destruct (is_conn (b_kind m)).
  - apply N.eqb_eq in Hf. split; [exact Hf|discriminate].
  - apply andb_true_iff in Hf as [Ha Hh]. apply N.eqb_eq in Ha, Hh. split; [exact Ha|intros _; exact Hh].
Qed.
Lemma registered_for_response resp m :
  b_kind m <> KGattError -> is_conn (b_kind m) = false -> registered_for resp m = kind_eqb (b_kind m) resp.
Proof.
  intros Hg Hc. unfold registered_for. rewrite Hc, orb_false_r.
  destruct (b_kind m); try apply orb_false_r. contradiction Hg. reflexivity.
Qed.

Theorem other_address_is_foreign resp a h m : b_addr m <> a -> passes resp a h m = false.
Proof. intro H. apply not_true_is_false. intro P. apply passes_own in P as (_ & Ha & _). exact (H Ha). Qed.
Theorem other_handle_is_foreign resp a h m : is_conn (b_kind m) = false -> b_handle m <> h -> passes resp a h m = false.
Proof. intros Hc H. apply not_true_is_false. intro P. apply passes_own in P as (_ & _ & Hh). exact (H (Hh Hc)). Qed.
Theorem other_response_type_is_foreign resp a h m :
  kind_eqb (b_kind m) resp = false -> b_kind m <> KGattError -> is_conn (b_kind m) = false -> passes resp a h m = false.
Proof. intros H1 H2 H3. unfold passes. rewrite (registered_for_response _ _ H2 H3), H1. reflexivity. Qed.

Theorem own_response_completes resp a h pre m post :
  (forall x, In x pre -> passes resp a h x = false) -> passes resp a h m = true ->
  handle_op resp a h (pre ++ m :: post) = classify m.
Proof. intros Hpre Hm. unfold handle_op. rewrite find_app, (find_all_false _ _ Hpre). cbn [find]. rewrite Hm. reflexivity. Qed.
Theorem nothing_own_stays_pending resp a h ms : (forall x, In x ms -> passes resp a h x = false) -> handle_op resp a h ms = OPending.
Proof. intro H. unfold handle_op. rewrite (find_all_false _ _ H). reflexivity. Qed.

Lemma classify_result x m : classify x = OResult m -> x = m /\ b_kind m <> KGattError /\ is_conn (b_kind m) = false.
Proof.
  unfold classify. destruct (b_kind x) eqn:E; intro H; try discriminate H;
    injection H as <-; rewrite E; (split; [reflexivity|split; [discriminate|reflexivity]]).
Qed.
Theorem result_is_own resp a h ms m : handle_op resp a h ms = OResult m -> b_addr m = a /\ b_handle m = h /\ kind_eqb (b_kind m) resp = true.
Proof.
  unfold handle_op. destruct (find (passes resp a h) ms) as [x|] eqn:E; [|discriminate].
  intro Hc. apply classify_result in Hc as (-> & Hg & Hn).
  apply find_some in E as [_ P]. apply passes_own in P as (Hr & Ha & Hh).
  rewrite (registered_for_response _ _ Hg Hn) in Hr. auto.
Qed.

Theorem no_cross_talk resp1 resp2 a1 h1 a2 h2 m :
  (a1 <> a2 \/ h1 <> h2) -> is_conn (b_kind m) = false -> passes resp1 a1 h1 m = true -> passes resp2 a2 h2 m = false.
Proof.
  intros Hd Hc P. apply passes_own in P as (_ & <- & Hh). rewrite <- (Hh Hc) in Hd. destruct Hd as [Hd|Hd].
  - apply other_address_is_foreign. exact Hd.
  - apply other_handle_is_foreign; assumption.
Qed.

Lemma is_notify_data_own a h m :
  is_notify_data a h m = true -> kind_eqb (b_kind m) KNotifyData = true /\ b_addr m = a /\ b_handle m = h.
Proof.
  unfold is_notify_data. intro H. apply andb_true_iff in H as [H Hh]. apply andb_true_iff in H as [Hk Ha].
  apply N.eqb_eq in Ha, Hh. auto.
Qed.
Lemma is_notify_data_foreign a h x :
  (b_addr x <> a \/ b_handle x <> h \/ kind_eqb (b_kind x) KNotifyData = false) -> is_notify_data a h x = false.
Proof.
  intro H. apply not_true_is_false. intro D. apply is_notify_data_own in D as (Hk & Ha & Hh). destruct H as [H|[H|H]]; congruence.
Qed.
Theorem notify_data_foreign a h pre x post :
  (b_addr x <> a \/ b_handle x <> h \/ kind_eqb (b_kind x) KNotifyData = false) ->
  notify_data a h (pre ++ x :: post) = notify_data a h (pre ++ post).
Proof.
  intro H. unfold notify_data. fold (is_notify_data a h). rewrite !filter_app. cbn [filter].
  rewrite (is_notify_data_foreign a h x H). reflexivity.
Qed.

Theorem connect_timeout_order a ms :
  (forall m, In m ms -> is_conn (b_kind m) && (b_addr m =? a) = false) ->
  connect_trace a ms = [CSubscribe; CWriteConnect a; CUnsubscribe; CWriteDisconnect a; CRaiseTimeout].
Proof. intro H. unfold connect_trace. rewrite find_all_false; [reflexivity|exact H]. Qed.

Definition spec_addr (sp : opspec) : N :=
  match sp with
  | OpHandle _ _ a _ _ | OpWriteNoResponse _ a _ | OpDevice _ _ a _ | OpDisconnect a _ | OpServices a | OpNotify a _ _ | OpConnect a _ _ _ _ => a
  end.
Definition spec_handle (sp : opspec) : option N :=
  match sp with OpHandle _ _ _ h _ | OpNotify _ h _ => Some h | _ => None end.

Definition foreign (st : opst) (e : bevent) : Prop :=
  match e with
  | EMsg m => b_addr m <> spec_addr (o_spec st) \/
              (exists h, spec_handle (o_spec st) = Some h /\ b_handle m <> h /\ is_conn (b_kind m) = false)
  | ECancel id | EUnsub id | EStopNotify id => id <> o_id st
  | EStart _ _ => True
  | ETime _ | ETurnEnd => False
  end.

(* foreign on a message, by address and optional handle; a connection change concerns every handle of its device *)
Definition elsewhere (a : N) (oh : option N) (m : bmsg) : Prop :=
  b_addr m <> a \/ exists h, oh = Some h /\ b_handle m <> h /\ is_conn (b_kind m) = false.

Lemma elsewhere_addr a m : elsewhere a None m -> (b_addr m =? a) = false.
Proof. intros [H|(h & Hh & _)]; [apply N.eqb_neq; exact H|discriminate Hh]. Qed.
Lemma passes_elsewhere resp a h m : elsewhere a (Some h) m -> passes resp a h m = false.
Proof.
  intros [H|(h0 & [= <-] & Hh & Hc)]; [apply other_address_is_foreign|apply other_handle_is_foreign]; assumption.
Qed.
Lemma is_notify_data_elsewhere a h m : elsewhere a (Some h) m -> is_notify_data a h m = false.
Proof. intros [H|(h0 & [= <-] & H & _)]; apply is_notify_data_foreign; auto. Qed.
Lemma types_filter_elsewhere a ks m : elsewhere a None m -> types_filter a ks m = false.
Proof. intro H. unfold types_filter. rewrite (elsewhere_addr _ _ H). apply andb_false_r. Qed.
Lemma passes_disc_elsewhere a m : elsewhere a None m -> passes_disc a m = false.
Proof. intro H. unfold passes_disc. destruct (b_kind m); try reflexivity. rewrite (elsewhere_addr _ _ H). reflexivity. Qed.
Lemma is_conn_for_elsewhere a m : elsewhere a None m -> is_conn_for a m = false.
Proof. intro H. unfold is_conn_for. rewrite (elsewhere_addr _ _ H). apply andb_false_r. Qed.

Lemma await_other_foreign st e : match e with EMsg _ => False | _ => foreign st e end -> await_other st e = (st, []).
Proof.
  destruct e; cbn; intro F; try contradiction; try reflexivity. rewrite (proj2 (Nat.eqb_neq _ _) F). reflexivity.
Qed.

(* every entry of the table compares a call's id with the operation's own, and none looks at a start *)
Lemma foreign_call_ignored now st e : match e with EMsg _ => False | _ => foreign st e end -> op_step now st e = (st, []).
Proof.
  intro F. unfold op_step, await_step, await_other.
  destruct e as [m|t|id|id|id| |id sp]; cbn [foreign] in F; try contradiction; try apply Nat.eqb_neq in F;
    destruct (o_phase st), (o_spec st); rewrite ?F; reflexivity.
Qed.

Lemma opst_eta st : mkOp (o_id st) (o_spec st) (o_phase st) (o_deadline st) (o_acc st) = st.
Proof. destruct st; reflexivity. Qed.

Theorem foreign_event_ignored now st e : foreign st e -> op_step now st e = (st, []).
Proof.
  intro F. destruct e as [m| | | | | |]; [|apply foreign_call_ignored, F..].
  change (elsewhere (spec_addr (o_spec st)) (spec_handle (o_spec st)) m) in F.
  unfold op_step, await_step, passes_dev, services_accept, services_stop.
  destruct (o_phase st) eqn:Ep; [| | | |reflexivity]; destruct (o_spec st) eqn:Es; cbn [spec_addr spec_handle] in F; try reflexivity.
  - (* PRunning, OpHandle *) rewrite (passes_elsewhere _ _ _ _ F). reflexivity.
  - (* PRunning, OpDevice *) rewrite (types_filter_elsewhere _ _ _ F). reflexivity.
  - (* PRunning, OpDisconnect *) rewrite (passes_disc_elsewhere _ _ F). reflexivity.
  - (* PRunning, OpServices: neither accepted nor the last one, the state is rebuilt with its accumulator as it was *)
    rewrite !(types_filter_elsewhere _ _ _ F). destruct (services_registered m); [|reflexivity].
    rewrite <- Ep, <- Es, opst_eta. reflexivity.
  - (* PRunning, OpNotify *) rewrite (is_notify_data_elsewhere _ _ _ F), (passes_elsewhere _ _ _ _ F). reflexivity.
  - (* PRunning, OpConnect *) rewrite (is_conn_for_elsewhere _ _ F). reflexivity.
  - (* PDisconnecting, OpConnect *) rewrite (passes_disc_elsewhere _ _ F). reflexivity.
  - (* PActive, OpNotify *) rewrite (is_notify_data_elsewhere _ _ _ F). reflexivity.
  - (* PActive, OpConnect *) rewrite (is_conn_for_elsewhere _ _ F). reflexivity.
  - (* PResolved, OpNotify *) rewrite (is_notify_data_elsewhere _ _ _ F). reflexivity.
  - (* PResolved, OpConnect *) rewrite (is_conn_for_elsewhere _ _ F), andb_false_r. reflexivity.
Qed.

Theorem finished_is_inert now st e : o_phase st = PFinished -> op_step now st e = (st, []).
Proof. intro H. unfold op_step. rewrite H. reflexivity. Qed.
Theorem finished_unsubscribed st : o_phase st = PFinished -> subscriptions st = [].
Proof. intro H. unfold subscriptions. rewrite H. reflexivity. Qed.

Definition is_notify (sp : opspec) : bool := match sp with OpNotify _ _ _ => true | _ => false end.
Definition wf (st : opst) : Prop :=
  match o_phase st with
  | PResolved r true => r = RReturned /\ (is_connect (o_spec st) || is_notify (o_spec st)) = true
  | PActive => (is_connect (o_spec st) || is_notify (o_spec st)) = true
  | PDisconnecting => is_connect (o_spec st) = true
  | _ => True
  end.

Lemma wf_start now id sp : wf (fst (start_op now id sp)).
Proof. destruct sp; exact I. Qed.

Definition reports (x : bobs) : bool := match x with BDone _ => true | _ => false end.
Definition quiet (o : list bobs) : Prop := existsb reports o = false.
Lemma quiet_not_done o r : quiet o -> ~ In (BDone r) o.
Proof.
  intros Q H. assert (E : existsb reports o = true) by (apply existsb_exists; exists (BDone r); split; [exact H|reflexivity]).
  congruence.
Qed.

Inductive edge (sp : opspec) (p : phase) : phase -> list bobs -> Prop :=
| edge_stay o : quiet o -> edge sp p p o
| edge_finish o : edge sp p PFinished o
| edge_resolve r o : quiet o -> edge sp p (PResolved r false) o           (* decided; reported when the chunk is done *)
| edge_return o : (is_connect sp || is_notify sp) = true -> quiet o -> edge sp p (PResolved RReturned true) o
| edge_resume r : p = PResolved r true -> edge sp p PActive [BDone r]     (* the caller gets its unsubscribe function *)
| edge_disconnect o : is_connect sp = true -> quiet o -> edge sp p PDisconnecting o.

Definition moves (st : opst) (x : opst * list bobs) : Prop :=
  o_id (fst x) = o_id st /\ o_spec (fst x) = o_spec st /\ edge (o_spec st) (o_phase st) (o_phase (fst x)) (snd x).

Lemma moves_stay st o : quiet o -> moves st (st, o).
Proof. intro Q. repeat split. apply edge_stay, Q. Qed.
Lemma moves_to id sp p d acc p' d' acc' o : edge sp p p' o -> moves (mkOp id sp p d acc) (mkOp id sp p' d' acc', o).
Proof. intro H. repeat split. exact H. Qed.
Lemma moves_if st (c : bool) x y : moves st x -> moves st y -> moves st (if c then x else y).
Proof. destruct c; auto. Qed.

Local Hint Resolve moves_stay moves_to moves_if edge_stay edge_finish edge_resolve edge_return edge_resume edge_disconnect : moves.
Local Hint Extern 1 (quiet _) => reflexivity : moves.
Local Hint Extern 1 (_ = true) => reflexivity : moves.

(* every entry of op_step's table is built from the operation's own fields, `if`, and ends in one of the edges *)
Lemma op_step_moves now st e : moves st (op_step now st e).
Proof.
  unfold op_step, await_step, await_other, cancelled, finish, resolve, to_phase.
  destruct st as [id sp p d acc]. cbn [o_id o_spec o_phase o_deadline o_acc fst].
  destruct p as [| | |r act|].
  - (* PRunning *) destruct sp; auto with moves; destruct e as [m| | | | | |]; cbv zeta; auto with moves.
    (* OpNotify, on a message that passes *) destruct (classify m); auto with moves.
  - (* PDisconnecting *) destruct sp; auto with moves. destruct e; auto with moves.
  - (* PActive *) destruct sp; auto with moves; destruct e; auto with moves.
  - (* PResolved *) destruct e; auto with moves.
    + (* EMsg *) destruct sp; auto with moves.
    + (* ETurnEnd *) destruct act; auto with moves.
  - (* PFinished *) auto with moves.
Qed.

Lemma wf_step now st e : wf st -> wf (fst (op_step now st e)).
Proof.
  intro W. destruct (op_step_moves now st e) as (_ & Hs & He). unfold wf in *. rewrite Hs.
  destruct He as [o Q|o|r o Q|o F Q|r Hr|o F Q]; auto.
  (* edge_resume: PActive asks what PResolved r true has *) rewrite Hr in W. apply W.
Qed.

(* the second disjunct: connect and notify hand the caller an unsubscribe function and stay subscribed until it is called *)
Theorem done_means_finished now st e st' o r :
  wf st -> op_step now st e = (st', o) -> In (BDone r) o ->
  o_phase st' = PFinished \/ (r = RReturned /\ o_phase st' = PActive /\ (is_connect (o_spec st) || is_notify (o_spec st)) = true).
Proof.
  intros W E Hin. pose proof (op_step_moves now st e) as (_ & _ & He). rewrite E in He. cbn [fst snd] in He.
  destruct He as [o Q|o|r0 o Q|o F Q|r0 Hr|o F Q]; try (destruct (quiet_not_done _ _ Q Hin)).
  - (* edge_finish *) left. reflexivity.
  - (* edge_resume *) destruct Hin as [[= ->]|[]]. unfold wf in W. rewrite Hr in W. destruct W as [-> F]. right. auto.
Qed.

Theorem done_unsubscribed now st e st' o r :
  wf st -> op_step now st e = (st', o) -> In (BDone r) o -> r <> RReturned -> subscriptions st' = [].
Proof.
  intros W E Hin Hr. destruct (done_means_finished _ _ _ _ _ _ W E Hin) as [H|[H _]]; [|contradiction].
  apply finished_unsubscribed. exact H.
Qed.

Theorem unsubscribe_is_immediate now st : o_phase st = PActive -> wf st ->
  subscriptions (fst (op_step now st (EUnsub (o_id st)))) = [] /\
  forall m, snd (op_step now (fst (op_step now st (EUnsub (o_id st)))) (EMsg m)) = [].
Proof.
  intros Hp W. unfold wf in W. rewrite Hp in W.
  assert (E : op_step now st (EUnsub (o_id st)) = (to_phase st PFinished, [])).
  { unfold op_step. rewrite Hp. destruct (o_spec st); try discriminate W; rewrite Nat.eqb_refl; reflexivity. }
  rewrite E. split; [apply finished_unsubscribed|intro m; rewrite finished_is_inert]; reflexivity.
Qed.
Theorem stop_notify_is_immediate now st a h t : o_phase st = PActive -> o_spec st = OpNotify a h t ->
  op_step now st (EStopNotify (o_id st)) = (to_phase st PFinished, [BWrite (RqNotify false) a h]).
Proof. intros Hp Hs. unfold op_step. rewrite Hp, Hs, Nat.eqb_refl. reflexivity. Qed.

Definition has (id : nat) (st : opst) : bool := Nat.eqb (o_id st) id.
Definition obs_of (id : nat) (o : list (nat * bobs)) : list (nat * bobs) := filter (fun p => Nat.eqb (fst p) id) o.
Definition keep (id : nat) (e : bevent) : bool := match e with EStart i _ => Nat.eqb i id | _ => true end.
Definition restrict (id : nat) (s : bstate) : bstate := mkBS (bs_now s) (filter (has id) (bs_ops s)).

Lemma obs_of_app id a b : obs_of id (a ++ b) = obs_of id a ++ obs_of id b.
Proof. apply filter_app. Qed.
Lemma obs_of_map id j (o : list bobs) : obs_of id (map (pair j) o) = if Nat.eqb j id then map (pair j) o else [].
Proof. unfold obs_of. induction o as [|x o IH]; cbn; [|rewrite IH]; destruct (Nat.eqb j id); reflexivity. Qed.

Lemma step_all_restrict id now e ops :
  step_all now (filter (has id) ops) e = (filter (has id) (fst (step_all now ops e)), obs_of id (snd (step_all now ops e))).
Proof.
  induction ops as [|st rest IH]; [reflexivity|].
  cbn [step_all filter]. destruct (op_step_moves now st e) as (Hid & _).
  destruct (op_step now st e) as [st' o] eqn:E, (step_all now rest e) as [rest' o']. cbn [fst snd filter] in *.
  rewrite obs_of_app, obs_of_map. unfold has. rewrite Hid.
  destruct (Nat.eqb (o_id st) id); [cbn [step_all]; rewrite E|]; fold (has id); rewrite IH; reflexivity.
Qed.

Lemma start_op_id now id sp : o_id (fst (start_op now id sp)) = id.
Proof. destruct sp; reflexivity. Qed.

Lemma bstep_restrict id s e :
  (restrict id (fst (bstep s e)), obs_of id (snd (bstep s e))) = if keep id e then bstep (restrict id s) e else (restrict id s, []).
Proof.
  destruct e as [m|t|i|i|i| |i sp]; cbn [keep bstep restrict bs_now bs_ops];
    try (rewrite step_all_restrict; destruct (step_all _ (bs_ops s) _); reflexivity).
  (* EStart *)
  pose proof (start_op_id (bs_now s) i sp) as Hid. destruct (start_op (bs_now s) i sp) as [st o].
  unfold restrict. cbn [fst snd bs_now bs_ops] in *. rewrite filter_app, obs_of_map. cbn [filter]. unfold has at 2. rewrite Hid.
  destruct (Nat.eqb i id); [|rewrite app_nil_r]; reflexivity.
Qed.

Lemma brun_cons s e evs :
  brun s (e :: evs) = (fst (brun (fst (bstep s e)) evs), snd (bstep s e) ++ snd (brun (fst (bstep s e)) evs)).
Proof. cbn [brun]. destruct (bstep s e) as [s1 o1]. cbn [fst snd]. destruct (brun s1 evs). reflexivity. Qed.

Theorem others_do_not_matter id evs : forall s,
  restrict id (fst (brun s evs)) = fst (brun (restrict id s) (filter (keep id) evs)) /\
  obs_of id (snd (brun s evs)) = snd (brun (restrict id s) (filter (keep id) evs)).
Proof.
  induction evs as [|e evs IH]; intro s; [split; reflexivity|].
  cbn [filter]. rewrite brun_cons. cbn [fst snd]. rewrite obs_of_app. destruct (IH (fst (bstep s e))) as [-> ->].
  pose proof (bstep_restrict id s e) as B. destruct (keep id e).
  - rewrite brun_cons, <- B. split; reflexivity.
  - apply (f_equal fst) in B as B1. apply (f_equal snd) in B. cbn [fst snd] in B, B1. rewrite B, B1. split; reflexivity.
Qed.

Lemma step_all_wf now e ops : Forall wf ops -> Forall wf (fst (step_all now ops e)).
Proof.
  induction 1 as [|st rest Hw _ IH]; [constructor|].
  cbn [step_all]. apply (wf_step now st e) in Hw. destruct (op_step now st e), (step_all now rest e). constructor; assumption.
Qed.
Lemma bstep_wf s e : Forall wf (bs_ops s) -> Forall wf (bs_ops (fst (bstep s e))).
Proof.
  intro H.
  assert (Hall : forall now, Forall wf (bs_ops (fst (let '(ops, o) := step_all now (bs_ops s) e in (mkBS now ops, o))))).
  { intro now. apply (step_all_wf now e) in H. destruct (step_all now (bs_ops s) e). exact H. }
  destruct e as [m|t|i|i|i| |i sp]; try apply Hall.
  (* EStart *) cbn [bstep].
  pose proof (wf_start (bs_now s) i sp) as W. destruct (start_op (bs_now s) i sp). cbn [fst bs_ops] in *.
  apply Forall_app. split; [exact H|constructor; [exact W|constructor]].
Qed.
Theorem reachable_wf evs : forall s, Forall wf (bs_ops s) -> Forall wf (bs_ops (fst (brun s evs))).
Proof. induction evs as [|e evs IH]; intros s H; [exact H|]. rewrite brun_cons. apply IH, bstep_wf, H. Qed.

Fixpoint run_op (now : Z) (st : opst) (es : list bevent) : opst * list bobs :=
  match es with
  | [] => (st, [])
  | e :: rest => let now' := match e with ETime t => Z.max now t | _ => now end in
                 let '(st1, o1) := op_step now' st e in let '(st2, o2) := run_op now' st1 rest in (st2, o1 ++ o2)
  end.

Lemma run_op_silent_msg now st m st' es : op_step now st (EMsg m) = (st', []) -> run_op now st (EMsg m :: es) = run_op now st' es.
Proof. intro H. cbn [run_op]. rewrite H. destruct (run_op now st' es). reflexivity. Qed.

Lemma classify_not_pending m : classify m <> OPending.
Proof. unfold classify. destruct (b_kind m); discriminate. Qed.

Lemma resolved_handle_reports now st r rq resp a h t ms :
  o_phase st = PResolved r false -> o_spec st = OpHandle rq resp a h t ->
  snd (run_op now st (map EMsg ms ++ [ETurnEnd])) = [BDone r].
Proof.
  intros Hp Hs. induction ms as [|m ms IH]; cbn [map app].
  - cbn [run_op]. unfold op_step. rewrite Hp. reflexivity.
  - rewrite (run_op_silent_msg _ _ _ st); [exact IH|]. unfold op_step. rewrite Hp, Hs. reflexivity.
Qed.

Theorem handle_op_refines now st rq resp a h t ms :
  o_phase st = PRunning -> o_spec st = OpHandle rq resp a h t ->
  snd (run_op now st (map EMsg ms ++ [ETurnEnd])) =
  match handle_op resp a h ms with OPending => [] | o => [BDone (RMsg o)] end.
Proof.
  intros Hp Hs. induction ms as [|m ms IH]; cbn [map app].
  - cbn [run_op]. unfold op_step. rewrite Hp, Hs. reflexivity.
  - assert (E : op_step now st (EMsg m) = if passes resp a h m then (resolve st (RMsg (classify m)) false, []) else (st, []))
      by (unfold op_step; rewrite Hp, Hs; reflexivity).
    unfold handle_op in *. cbn [find]. destruct (passes resp a h m).
    + rewrite (run_op_silent_msg _ _ _ _ _ E), (resolved_handle_reports _ _ _ rq resp a h t) by (try exact Hs; reflexivity).
      pose proof (classify_not_pending m) as Hc. destruct (classify m); try reflexivity. contradiction.
    + rewrite (run_op_silent_msg _ _ _ _ _ E). exact IH.
Qed.

Theorem connect_timeout_step now st a hc ff t dt tm :
  o_phase st = PRunning -> o_spec st = OpConnect a hc ff t dt -> (o_deadline st <= tm)%Z ->
  op_step now st (ETime tm) =
  (mkOp (o_id st) (o_spec st) PDisconnecting (now + dt) [], [BUnsubscribed; BWrite (RqDevice BLE_REQ_DISCONNECT) a 0]).
Proof.
  intros Hp Hs Hd. unfold op_step. rewrite Hp, Hs. apply Z.leb_le in Hd. rewrite Hd. reflexivity.
Qed.
Theorem connect_waits_until_deadline now st a hc ff t dt e :
  o_phase st = PRunning -> o_spec st = OpConnect a hc ff t dt ->
  match e with EMsg m => is_conn_for a m = false | ETime tm => (tm < o_deadline st)%Z | ECancel id => id <> o_id st | _ => True end ->
  op_step now st e = (st, []).
Proof.
  intros Hp Hs H. unfold op_step. rewrite Hp, Hs. destruct e; try reflexivity.
  - (* EMsg *) rewrite H. reflexivity.
  - (* ETime *) apply Z.leb_gt in H. rewrite H. reflexivity.
  - (* ECancel *) apply Nat.eqb_neq in H. rewrite H. reflexivity.
Qed.

(* a connect past its deadline as C16 speaks of it, by its phase alone: that a resolved one carries the time-out is a
   hypothesis of its own there *)
Definition timing_out (st : opst) : Prop :=
  is_connect (o_spec st) = true /\ (o_phase st = PDisconnecting \/ (exists r, o_phase st = PResolved r false) \/ o_phase st = PFinished).
Definition timeout_obs (x : bobs) : Prop :=
  match x with BDone (RConnectTimeout _) | BDone RCancelled => True | _ => False end.

(* the two hypotheses in one, which is what steps preserve; timed_out_phase takes it apart again *)
Inductive timed_out : phase -> Prop :=
| timed_out_disconnecting : timed_out PDisconnecting
| timed_out_resolved b : timed_out (PResolved (RConnectTimeout b) false)
| timed_out_finished : timed_out PFinished.

Definition late (x : opst * list bobs) : Prop := timed_out (o_phase (fst x)) /\ Forall timeout_obs (snd x).
Lemma late_if (c : bool) x y : late x -> late y -> late (if c then x else y).
Proof. destruct c; auto. Qed.

Lemma timed_out_step now st e : is_connect (o_spec st) = true -> timed_out (o_phase st) -> late (op_step now st e).
Proof.
  intros Hc T. assert (Hig : late (st, [])) by (split; [exact T|constructor]).
  unfold op_step. destruct (o_spec st); try discriminate Hc.
  (* in each of the three phases an entry of the connect's table is (st, []), outright or as the `else` of an `if` whose
     `then` is an ending: resolved with the time-out and silent, or finished and reporting the time-out or the cancellation *)
  inversion T; destruct e; cbn [andb is_connect]; try exact Hig;
    try apply late_if; try exact Hig; repeat constructor.
Qed.

Lemma timed_out_phase p : timed_out p ->
  (p = PDisconnecting \/ (exists r, p = PResolved r false) \/ p = PFinished) /\
  forall r, p = PResolved r false -> exists b, r = RConnectTimeout b.
Proof. intros []; (split; [eauto|intros r [= <-]; eauto]). Qed.

Theorem after_timeout_only_the_error now st e :
  timing_out st -> (forall r, o_phase st = PResolved r false -> exists b, r = RConnectTimeout b) ->
  timing_out (fst (op_step now st e)) /\
  (forall r, o_phase (fst (op_step now st e)) = PResolved r false -> exists b, r = RConnectTimeout b) /\
  Forall timeout_obs (snd (op_step now st e)).
Proof.
  intros [Hc Hph] Hr.
  assert (T : timed_out (o_phase st)).
  { destruct Hph as [-> | [[r Hp] | ->]]; try constructor. destruct (Hr r Hp) as [b ->]. rewrite Hp. constructor. }
  destruct (timed_out_step now st e Hc T) as [T' O]. apply timed_out_phase in T' as [P R].
  destruct (op_step_moves now st e) as (_ & Hs & _). unfold timing_out. rewrite Hs. auto.
Qed.
